(** * C20 - assignability is a sound order (and the rule-level half of C06, null safety)

    Statements are about [super cx A B] of model/Types.v: "a value of type B is accepted where A is expected"
    ([Name::is_superset_of]), and [union_members] ([Name::union]).  The model is tied to the Rust code by the
    class table regenerated from the stub files (gen/Stubs.v, side condition [stubs_wf]) and by the `super` /
    `union` correspondence over the finite universe of model/TypesUniv.v.

    Unbounded part.  [cx] is ANY class table with [ctx_ok cx = true] (class names unique; non-generic classes
    inherit only from non-generic classes of the table; Any and None have no parents and nothing inherits from
    None) that is [acyclic]; both follow from the decidable [stubs_wf] ([C20_hypotheses_decidable]), which holds of
    the generated table and of it extended by the user hierarchy of model/TypesUniv.v ([C20_stubs_wf],
    [C20_demo_wf]).  Types are names all of whose members are [plain]: a non-generic class of the table,
    optionally nullable.  On these, under both hypotheses,
      [C20_total] [C20_super_refl] [C20_super_trans] [C20_any_top] [C20_ancestor] [C20_unrelated]
      [C06_nullable_rule] [C20_union_upper] [C20_union_member_fwd] [C20_order_irrelevant]
      [C20_same_members_same_answer]
    hold at full strength, and [C20_union_member_bwd_outside_known] outside the decidable class "the union rewrites
    members" ([mixes]: a None member next to another member).  About [union_members] alone, for any table,
      [C20_union_comm]; [C20_union_idem_outside_known] [C20_union_assoc_outside_known] outside that class,
    with [_refuted] witnesses inside the class (D17, D23).

    Bounded part.  For generic instantiations the relation is decided for all pairs / triples of the stated
    finite universe (143 types) by evaluation: [C20_universe].  There reflexivity fails exactly on
    instantiations with a nullable argument (D22), transitivity fails where tuples of different length meet as
    long as [tuple_zip_truncates] holds (repaired in /repo, eb238d6: [C20_universe_trans_when_fixed]), and the union
    does not accept its own member where a Collection[..] meets a tuple (D38).
    Not proved: the laws for generic types outside that universe. *)
From Coq Require Import List String Bool Permutation.
From MambaModel Require Import gen.TypesConf model.Types gen.Stubs model.TypesUniv proofs.TypesProps proofs.TypesUnivOk.
Import ListNotations.
Local Open Scope string_scope.
Local Open Scope list_scope.

Section Unbounded.
  Variable cx : ctx.
  Hypothesis Hok : ctx_ok cx = true.
  Hypothesis Hacyc : acyclic cx.

  Theorem C20_total : forall A B, plainN cx A = true -> plainN cx B = true ->
    super cx A B = Ok true \/ super cx A B = Ok false.
  Proof. exact (super_total cx Hok Hacyc). Qed.

  Theorem C20_super_refl : forall A, plainN cx A = true -> super cx A A = Ok true.
  Proof. exact (super_refl cx Hok Hacyc). Qed.

  Theorem C20_super_trans : forall A B C,
    plainN cx A = true -> plainN cx B = true -> plainN cx C = true ->
    super cx A B = Ok true -> super cx B C = Ok true -> super cx A C = Ok true.
  Proof. exact (super_trans cx Hok Hacyc). Qed.

  Theorem C20_any_top : forall A,
    plainN cx A = true -> A <> [] -> forallb (fun t => negb (tnull t)) A = true ->
    super cx [cls_ty ANY] A = Ok true.
  Proof. exact (any_top cx Hok Hacyc). Qed.

  Theorem C20_ancestor : forall a c,
    is_plain_class cx a = true -> is_plain_class cx c = true ->
    anc cx a c -> super cx [cls_ty a] [cls_ty c] = Ok true.
  Proof. exact (ancestor cx Hok Hacyc). Qed.

  Theorem C20_unrelated : forall a c,
    is_plain_class cx a = true -> is_plain_class cx c = true ->
    ~ anc cx a c -> a <> ANY -> super cx [cls_ty a] [cls_ty c] = Ok false.
  Proof. exact (unrelated cx Hok Hacyc). Qed.

  (** T and None are assignable to T?, T? is not assignable to T (nor to any other non-nullable class),
      None is not assignable to T (T other than Any: see [C06_any_accepts_none]) *)
  Theorem C06_nullable_rule : forall t,
    is_plain_class cx t = true -> t <> NONE ->
    super cx [TN true t []] [cls_ty NONE] = Ok true /\
    super cx [TN true t []] [cls_ty t] = Ok true /\
    (forall u, is_plain_class cx u = true -> super cx [cls_ty u] [TN true t []] = Ok false) /\
    (t <> ANY -> super cx [cls_ty t] [cls_ty NONE] = Ok false).
  Proof.
    intros t P Hn. split; [exact (nullable_accepts_none cx Hok Hacyc t P Hn)|].
    split; [exact (nullable_accepts_base cx Hok Hacyc t P Hn)|].
    split; [intros u Pu; exact (base_rejects_nullable cx Hok Hacyc u t Pu P Hn)|].
    intros Ha. exact (base_rejects_none cx Hok Hacyc t P Hn Ha).
  Qed.

  Theorem C20_union_upper : forall A B,
    plainN cx A = true -> plainN cx B = true -> A <> [] -> B <> [] ->
    super cx (union_members A B) A = Ok true /\ super cx (union_members A B) B = Ok true.
  Proof. exact (union_upper cx Hok Hacyc). Qed.

  Theorem C20_union_member_fwd : forall U A B,
    plainN cx U = true -> plainN cx A = true -> plainN cx B = true -> A <> [] -> B <> [] ->
    super cx U (union_members A B) = Ok true -> super cx U A = Ok true /\ super cx U B = Ok true.
  Proof. exact (union_member_fwd cx Hok Hacyc). Qed.

  Theorem C20_union_member_bwd_outside_known : forall U A B,
    plainN cx U = true -> plainN cx A = true -> plainN cx B = true ->
    mixes A B = false \/ forallb tnull U = true ->
    super cx U A = Ok true -> super cx U B = Ok true -> super cx U (union_members A B) = Ok true.
  Proof. exact (union_member_bwd_outside_known cx Hok Hacyc). Qed.

  Theorem C20_union_comm : forall A B, plainN cx A = true -> plainN cx B = true ->
    same_set (union_members A B) (union_members B A).
  Proof. exact (union_comm cx). Qed.

  Theorem C20_union_idem_outside_known : forall A, plainN cx A = true -> mixes A A = false ->
    same_set (union_members A A) A.
  Proof. exact (union_idem_outside_known cx). Qed.

  Theorem C20_union_assoc_outside_known : forall A B C,
    plainN cx A = true -> plainN cx B = true -> plainN cx C = true ->
    existsb is_null (A ++ B ++ C) = false ->
    same_set (union_members (union_members A B) C) (union_members A (union_members B C)).
  Proof. exact (union_assoc_outside_known cx). Qed.

  Theorem C20_order_irrelevant : forall A A' B B',
    plainN cx A = true -> plainN cx B = true -> Permutation A A' -> Permutation B B' ->
    super cx A B = super cx A' B'.
  Proof. exact (order_irrelevant cx Hok Hacyc). Qed.

  Theorem C20_same_members_same_answer : forall A A' B B',
    plainN cx A = true -> plainN cx B = true -> same_set A A' -> same_set B B' ->
    super cx A B = super cx A' B'.
  Proof. exact (super_same_set cx Hok Hacyc). Qed.
End Unbounded.

(** the decidable check implies acyclicity, so the hypotheses can be discharged by evaluation *)
Theorem C20_hypotheses_decidable : forall cx, stubs_wf cx = true -> ctx_ok cx = true /\ acyclic cx.
Proof. exact wf_ok. Qed.

(** non-vacuity of the hypotheses, and of [plainN] *)
Theorem C20_stubs_wf : stubs_wf generated = true.
Proof. exact generated_wf. Qed.

Example C20_demo_wf : stubs_wf demo = true.
Proof. exact demo_wf. Qed.
Example C20_demo_plain :
  plainN demo [cls_ty "D"; TN true "Int" []; cls_ty "None"; cls_ty "Any"; cls_ty "str_iterator"] = true.
Proof. vm_compute. reflexivity. Qed.
Example C20_demo_anc : anc demo "A" "E" /\ ~ anc demo "U" "E".
Proof.
  split.
  - eapply anc_step with (p := cls_ty "D"); [vm_compute; reflexivity | left; reflexivity |].
    eapply anc_step with (p := cls_ty "B"); [vm_compute; reflexivity | left; reflexivity |].
    eapply anc_step with (p := cls_ty "A"); [vm_compute; reflexivity | left; reflexivity |]. constructor.
  - intros H.
    assert (E : super demo [cls_ty "U"] [cls_ty "E"] = Ok false) by (vm_compute; reflexivity).
    pose proof (ancestor demo (proj1 demo_ok) (proj2 demo_ok) "U" "E" eq_refl eq_refl H) as Ht.
    rewrite E in Ht. discriminate.
Qed.

Theorem C20_universe :
  (List.length univ, List.length univ_rel, List.length univ_small) = (143, 139, 29) /\
  no_divergence demo univ = true /\
  refl_check demo univ = true /\ refl_exact demo univ = true /\
  trans_outside demo univ_rel = true /\
  any_top_check demo univ_rel = true /\
  union_upper_check demo univ_rel = true /\
  union_comm_check univ = true /\ union_idem_check univ = true /\
  union_assoc_check univ_small = true /\ union_member_check demo univ_small = true.
Proof.
  exact (conj univ_size (conj univ_no_divergence (conj univ_refl (conj univ_refl_exact (conj univ_trans
        (conj univ_any_top (conj univ_union_upper (conj univ_union_comm (conj univ_union_idem
        (conj univ_union_assoc univ_union_member)))))))))).
Qed.

Theorem C20_union_assoc_refuted :
  exists A B C, plainN generated A = true /\ plainN generated B = true /\ plainN generated C = true /\
    union_members (union_members A B) C = [q tInt; tStr] /\
    union_members A (union_members B C) = [tInt; q tStr] /\
    super generated (union_members (union_members A B) C) (union_members A (union_members B C)) = Ok false /\
    super generated (union_members A (union_members B C)) (union_members (union_members A B) C) = Ok false.
Proof. exact union_assoc_refuted. Qed.

Theorem C20_super_refl_refuted : exists A, super generated A A = Ok false.
Proof. exact super_refl_refuted. Qed.

Theorem C20_union_member_refuted :
  exists U A B, plainN generated U = true /\ plainN generated A = true /\ plainN generated B = true /\
    super generated U A = Ok true /\ super generated U B = Ok true /\
    super generated U (union_members A B) = Ok false.
Proof. exact union_member_refuted. Qed.

Theorem C20_union_idem_refuted :
  exists A, plainN generated A = true /\ union_members A A = [q tInt] /\
            super generated A (union_members A A) = Ok false.
Proof. exact union_idem_refuted. Qed.

(** [tuple_zip_truncates] is read from has_parent on every run (gen/TypesConf.v) *)
Theorem C20_super_trans_refuted :
  tuple_zip_truncates = true ->
  exists A B C, super generated A B = Ok true /\ super generated B C = Ok true /\ super generated A C = Ok false.
Proof. exact super_trans_refuted. Qed.

Theorem C20_universe_trans_when_fixed :
  tuple_zip_truncates = false -> trans_table (matrix demo univ_rel) = true.
Proof. exact univ_trans_full. Qed.

Theorem C20_union_upper_refuted :
  exists A B, super generated (union_members A B) B = Err /\ super generated B B = Ok true.
Proof. exact union_upper_refuted. Qed.

Theorem C06_any_accepts_none : super generated [tAny] [tNone] = Ok true.
Proof. exact any_accepts_none. Qed.

(** a class that inherits from itself: class lookup diverges for every fuel (D8).  /repo refuses such a table when
    it builds the [Context] ([check_inheritance_acyclic]), so [acyclic] holds of every table the relation is run on. *)
Theorem C20_cyclic_diverges : forall f, lookup f cyclic_table ("A", []) = Div.
Proof. exact cyclic_diverges. Qed.

Check C20_super_refl : forall cx, ctx_ok cx = true -> acyclic cx ->
  forall A, plainN cx A = true -> super cx A A = Ok true.
Check C20_super_trans : forall cx, ctx_ok cx = true -> acyclic cx -> forall A B C,
  plainN cx A = true -> plainN cx B = true -> plainN cx C = true ->
  super cx A B = Ok true -> super cx B C = Ok true -> super cx A C = Ok true.
Check C20_any_top : forall cx, ctx_ok cx = true -> acyclic cx -> forall A,
  plainN cx A = true -> A <> [] -> forallb (fun t => negb (tnull t)) A = true -> super cx [cls_ty ANY] A = Ok true.
Check C20_ancestor : forall cx, ctx_ok cx = true -> acyclic cx -> forall a c,
  is_plain_class cx a = true -> is_plain_class cx c = true -> anc cx a c -> super cx [cls_ty a] [cls_ty c] = Ok true.
Check C20_unrelated : forall cx, ctx_ok cx = true -> acyclic cx -> forall a c,
  is_plain_class cx a = true -> is_plain_class cx c = true -> ~ anc cx a c -> a <> ANY ->
  super cx [cls_ty a] [cls_ty c] = Ok false.
Check C06_nullable_rule : forall cx, ctx_ok cx = true -> acyclic cx -> forall t,
  is_plain_class cx t = true -> t <> NONE ->
  super cx [TN true t []] [cls_ty NONE] = Ok true /\ super cx [TN true t []] [cls_ty t] = Ok true /\
  (forall u, is_plain_class cx u = true -> super cx [cls_ty u] [TN true t []] = Ok false) /\
  (t <> ANY -> super cx [cls_ty t] [cls_ty NONE] = Ok false).
Check C20_union_upper : forall cx, ctx_ok cx = true -> acyclic cx -> forall A B,
  plainN cx A = true -> plainN cx B = true -> A <> [] -> B <> [] ->
  super cx (union_members A B) A = Ok true /\ super cx (union_members A B) B = Ok true.
Check C20_union_member_fwd : forall cx, ctx_ok cx = true -> acyclic cx -> forall U A B,
  plainN cx U = true -> plainN cx A = true -> plainN cx B = true -> A <> [] -> B <> [] ->
  super cx U (union_members A B) = Ok true -> super cx U A = Ok true /\ super cx U B = Ok true.
Check C20_union_member_bwd_outside_known : forall cx, ctx_ok cx = true -> acyclic cx -> forall U A B,
  plainN cx U = true -> plainN cx A = true -> plainN cx B = true ->
  mixes A B = false \/ forallb tnull U = true ->
  super cx U A = Ok true -> super cx U B = Ok true -> super cx U (union_members A B) = Ok true.
Check C20_union_comm : forall cx A B, plainN cx A = true -> plainN cx B = true ->
  same_set (union_members A B) (union_members B A).
Check C20_union_idem_outside_known : forall cx A, plainN cx A = true -> mixes A A = false ->
  same_set (union_members A A) A.
Check C20_union_assoc_outside_known : forall cx A B C,
  plainN cx A = true -> plainN cx B = true -> plainN cx C = true -> existsb is_null (A ++ B ++ C) = false ->
  same_set (union_members (union_members A B) C) (union_members A (union_members B C)).
Check C20_order_irrelevant : forall cx, ctx_ok cx = true -> acyclic cx -> forall A A' B B',
  plainN cx A = true -> plainN cx B = true -> Permutation A A' -> Permutation B B' -> super cx A B = super cx A' B'.
Check C20_stubs_wf : stubs_wf generated = true.
Print Assumptions C20_total.
Print Assumptions C20_super_refl.
Print Assumptions C20_super_trans.
Print Assumptions C20_any_top.
Print Assumptions C20_ancestor.
Print Assumptions C20_unrelated.
Print Assumptions C06_nullable_rule.
Print Assumptions C20_union_upper.
Print Assumptions C20_union_member_fwd.
Print Assumptions C20_union_member_bwd_outside_known.
Print Assumptions C20_union_comm.
Print Assumptions C20_union_idem_outside_known.
Print Assumptions C20_union_assoc_outside_known.
Print Assumptions C20_order_irrelevant.
Print Assumptions C20_stubs_wf.
Print Assumptions C20_universe.
