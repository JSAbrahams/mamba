(** * C06 - null safety: None and T? never flow into non-nullable positions

    Rule level ([T? >= T], [T? >= None], not [T >= T?], not [T >= None]): [C06_nullable_rule] of props/C20.v, over
    model/Types.v, for every acyclic class table and every non-generic class T.  Re-exported here as [C06_rule].

    Position level (this file), over the mini-language of model/Typing.v (see props/C05.v):
      [C06_null_flow]       in a conforming program (equivalently: accepted by the repaired checker) every obligation
                            the traversal emits at a consuming position - argument of a function, constructor or
                            method, operand and receiver of an operator or method, initialiser, new value of a
                            variable or field, returned value, default value, value of a handle arm - whose required
                            type has only non-nullable, non-Any members is met by a type that is neither nullable
                            nor None; the receiver of every field access / assignment is non-nullable; range bounds
                            are non-nullable
      [C06_nonnull_accepted]   the rule behind it: what a plain non-nullable, non-Any type accepts is not nullable
      [C06_null_flow_impl_outside_known]   the same, without the clause on range bounds, for programs the
                            implementation's rules accept, outside the known classes
      [C06_nullable_accepts] [C06_quest_is_nonnull]    the positive half: T and None are accepted where T? is
                            expected, and [x ? d] with [x : T?], [d : T] is accepted as T
      [C06_null_flow_refuted]   with the implementation's rules a T? reaches a T position: field access on a T?
                            receiver, [x ? None] as an Int, a T? range bound (witness programs, each confirmed on
                            the real code by lib/vlib/c06.py)
      [C06_rejects_none_for_nullable_formal]   and None is refused for a T? formal of a function, as long as the
                            generated flag [call_params_strip_nullable] is set
    All but the refutations take [ctx_ok cx] and [acyclic cx]; [C06_demo_table] shows them met by the demo program. *)
From Coq Require Import List String Bool.
From MambaModel Require Import model.Types model.TypingSig gen.Stubs gen.StubSigs model.Typing
  proofs.TypesProps proofs.TypingProps proofs.TypingWitness props.C20.
Import ListNotations.
Local Open Scope string_scope.

Definition impl : quirks := impl_quirks call_params_strip_nullable.

Definition C06_rule := C06_nullable_rule.

Theorem C06_nonnull_accepted : forall cx, ctx_ok cx = true -> acyclic cx -> forall T t,
  plainN cx T = true -> plain cx t = true -> requires_nonnull T = true -> sub cx T t -> nonnull t = true.
Proof. exact nonnull_accepted. Qed.

Theorem C06_null_flow : forall cx, ctx_ok cx = true -> acyclic cx -> forall sigs funs fields p l,
  conforms_with cx sigs funs fields p -> gen_prog cx sigs funs fields p = Some l ->
  (forall k T t lo, In (OSub k T t lo) l -> plainN cx T = true -> plain cx t = true ->
                    requires_nonnull T = true -> nonnull t = true) /\
  (forall t lo, In (OFieldRecv t lo) l -> nonnull t = true) /\
  (forall pth t lo, In (ORange pth t lo) l -> plainN cx [tInt] = true -> plain cx t = true -> nonnull t = true).
Proof. exact null_flow. Qed.

Theorem C06_null_flow_impl_outside_known : forall p l,
  ctx_ok (cx_of generated p) = true -> acyclic (cx_of generated p) ->
  known_free generated stub_sigs call_params_strip_nullable p = true ->
  check generated stub_sigs impl p = true -> obligations generated stub_sigs p = Some l ->
  (forall k T t lo, In (OSub k T t lo) l -> plainN (cx_of generated p) T = true -> plain (cx_of generated p) t = true ->
                    requires_nonnull T = true -> nonnull t = true) /\
  (forall t lo, In (OFieldRecv t lo) l -> nonnull t = true).
Proof. exact (null_flow_impl_outside_known generated stub_sigs call_params_strip_nullable). Qed.

Theorem C06_nullable_accepts : forall cx, ctx_ok cx = true -> acyclic cx -> forall c,
  is_plain_class cx c = true -> c <> NONE ->
  sub cx [TN true c []] (tcls c) /\ sub cx [TN true c []] tNone /\ sub cx [tcls c] (tcls c).
Proof. exact nullable_accepts. Qed.

Theorem C06_quest_is_nonnull : forall cx, ctx_ok cx = true -> acyclic cx -> forall sigs funs fields env x d c,
  is_plain_class cx c = true -> c <> NONE ->
  has_type cx sigs funs fields env x (TN true c []) -> has_type cx sigs funs fields env d (tcls c) ->
  has_type cx sigs funs fields env (EQuest x d) (tcls c).
Proof. exact quest_is_nonnull. Qed.

(** the hypotheses are satisfiable: the regenerated table with the classes of the demo program *)
Example C06_demo_table : stubs_wf (cx_of generated demo) = true /\ plain (cx_of generated demo) (tcls "P") = true.
Proof. split; vm_compute; reflexivity. Qed.

Theorem C06_null_flow_refuted :
  Forall (fun p => check generated stub_sigs impl p = true /\ ~ conforms generated stub_sigs p) [w_field; w_quest; w_range] /\
  (exists l, obligations generated stub_sigs w_field = Some l /\ In (OFieldRecv (TN true "C" []) false) l) /\
  (exists l, obligations generated stub_sigs w_quest = Some l /\ In (OSub KInit [tInt] (TN true "Int" []) true) l) /\
  (exists l, obligations generated stub_sigs w_range = Some l /\ In (ORange true (TN true "Int" []) false) l).
Proof. exact null_flow_refuted. Qed.

Theorem C06_rejects_none_for_nullable_formal :
  call_params_strip_nullable = true ->
  check generated stub_sigs impl w_param = false /\ conforms generated stub_sigs w_param.
Proof. exact rejects_conforming_param. Qed.

Check C06_null_flow : forall cx, ctx_ok cx = true -> acyclic cx -> forall sigs funs fields p l,
  conforms_with cx sigs funs fields p -> gen_prog cx sigs funs fields p = Some l ->
  (forall k T t lo, In (OSub k T t lo) l -> plainN cx T = true -> plain cx t = true ->
                    requires_nonnull T = true -> nonnull t = true) /\
  (forall t lo, In (OFieldRecv t lo) l -> nonnull t = true) /\
  (forall pth t lo, In (ORange pth t lo) l -> plainN cx [tInt] = true -> plain cx t = true -> nonnull t = true).
Check C06_quest_is_nonnull : forall cx, ctx_ok cx = true -> acyclic cx -> forall sigs funs fields env x d c,
  is_plain_class cx c = true -> c <> NONE ->
  has_type cx sigs funs fields env x (TN true c []) -> has_type cx sigs funs fields env d (tcls c) ->
  has_type cx sigs funs fields env (EQuest x d) (tcls c).
Print Assumptions C06_rule.
Print Assumptions C06_nonnull_accepted.
Print Assumptions C06_null_flow.
Print Assumptions C06_null_flow_impl_outside_known.
Print Assumptions C06_nullable_accepts.
Print Assumptions C06_quest_is_nonnull.
Print Assumptions C06_null_flow_refuted.
Print Assumptions C06_rejects_none_for_nullable_formal.
