(** * C14 - layout trivia never changes meaning (lexer level)

    Objects: [tokenize] of model/Lex.v (tied to the Rust lexer by the generated keyword/spelling
    tables and the byte-for-byte `lex` correspondence); [run_tls s] is the token list of
    [tokenize s] before the tokens of interpolated expressions are flattened in (C18:
    [tokenize_run]); [norm_of s] is [None] when the lexer rejects, else the token kinds with
    payloads, Comment tokens removed ([kinds_norm]); [repaired_norm_of s] also drops an NL that
    follows an NL or an Indent ([nl_drop]) and is what [AST::from_str] hands to the parser
    ([src/parse/mod.rs], repo_patches/c14_nl.diff); [nl_norm_of] instead collapses runs of NL
    (a variant, not what the code does).

    An edit is made at a point [pre | R] of the text where
      - [pre] is accepted by the lexer on its own ([accepted]) and is lexically complete
        ([complete eol pre]: no string literal left open; no lone carriage return at its end; and,
        when [eol = false], no comment running to its very end), and
      - [R] is empty or starts with a line break ([hd_eol]).
    [tl_eqv]/[tok_eqv]: same token (kind and payload), same nesting flag, identical span unless
    the token is one of the synthetic layout tokens NL / Indent / Dedent / Eof.
    [opt_rel R x y]: both runs are rejected, or both are accepted with [R]-related token lists.

    Proved for ALL inputs:
    - [C14_tokenize_total]    the model never runs out of fuel (so every statement below is
                              about real answers of [tokenize]);
    - [C14_crlf_same]         writing every LF as CRLF changes neither a token nor a position nor
                              a lexical error, provided no token starts with a carriage return and
                              every string literal is closed and holds no line feed ([crlf_ok]);
    - [C14_trailing_spaces]   [n] blanks before a line break / at the end of input: same verdict,
                              [tl_eqv] tokens (only synthetic layout tokens can move);
                              [.._norm]: [norm_of] is unchanged;
    - [C14_trailing_comment]  [k+1] blanks and [# text] before a line break, on a line that holds
                              a token: same verdict and exactly one more token, the Comment,
                              everything else [tl_eqv];   [.._norm]: [norm_of] is unchanged;
    - [C14_final_newline]     a line feed appended to a complete text adds NO token (the pending
                              NL is dropped at end of input): [tl_eqv] tokens;
                              [.._norm]: [norm_of] is unchanged.
    - [C14_blank_line]        a line holding only [n] blanks inserted after a line break point:
                              same verdict; either nothing changes (no token follows) or exactly
                              one NL token is added - handed out with the next token, after the
                              NL of the line and after the Indent/Dedent tokens - the tokens before
                              it are [tl_eqv], the tokens after it are the same tokens one line
                              further down ([tl_sh 1]);   [.._norm]: [norm_of] is unchanged or has
                              exactly one more MNL;   [.._repaired]: the extra MNL directly follows
                              an MNL or an MIndent, so under the filter of [AST::from_str]
                              ([nl_drop]: an NL after an NL or an Indent is dropped) the parser
                              is given the SAME token kinds with and without the blank line.
    - [C14_comment_after_token] a comment-only line inserted directly after a token line and
                              indented like it ([last_indent pre = Some (1 + k)]): same verdict and
                              exactly two more tokens, [NL; Comment]; the tokens before them are
                              unchanged, later tokens are the same tokens one line further down;
                              [.._norm]: [norm_of] gains exactly one MNL, and when the next kind is
                              an MNL (a token line follows) [nl_collapse] and [nl_drop] of the
                              two are equal.
    False of the lexer's answer with only the comments removed (witnesses evaluated below):
    - [C14_blank_line_refuted]   a blank line (hence also a comment-only line, whose Comment token
                              is filtered) adds an NL token that can land directly after an Indent:
                              [norm_of] changes and even [nl_norm_of] (NL runs collapsed) changes.
                              Without the [nl_drop] rule of [AST::from_str] the parser rejects such
                              lines between `match x` and its first arm (finding D5, repaired).
    NOT proved ([C14_partial] is this list, there is no theorem of that name):
    - whole-line comments in the other placements (indented like the NEXT statement, or after
      blank lines): the Comment token goes through the indentation machine like any token, so
      the line hands out pending NL tokens early and can add the Indent/Dedent tokens itself;
      that [norm_of] then changes only in NL tokens (at most two more) is checked on the
      implementation's tokens by lib/vlib/c14.py, not proved;
    - the step from "same [norm_of]" to "same verdict and same Python" needs the parser, checker
      and generator to depend on positions only up to an order-preserving renaming; none of them
      is modelled.  That step, and the redundant-parentheses edit, are covered by the end-to-end
      metamorphic runs only. *)
From Coq Require Import List Ascii ZArith String Lia.
From MambaModel Require Import model.LexTok gen.LexTables model.Lex proofs.LexProps proofs.TotalProps
  model.Trivia proofs.TriviaFuel proofs.TriviaScan proofs.TriviaSim proofs.TriviaCrlf proofs.TriviaProps
  proofs.TriviaShift proofs.TriviaBlank proofs.TriviaComment.
Import ListNotations.
Local Open Scope Z_scope.

Theorem C14_tokenize_total : forall s, tokenize s <> OutOfFuel.
Proof. exact lex_total. Qed.

Theorem C14_crlf_same : forall s, crlf_ok (run_fuel s) s = true -> tokenize (crlf s) = tokenize s.
Proof. exact crlf_same. Qed.

Theorem C14_trailing_spaces :
  forall pre R n, accepted pre = true -> complete false pre = true -> hd_eol R = true ->
    opt_rel (Forall2 tl_eqv) (run_tls (pre ++ R)) (run_tls (pre ++ spaces n ++ R)).
Proof.
  intros pre R n Hacc Hc HR. apply accepted_inv in Hacc as (st & acc & Hp).
  pose proof (hd_eol_stop R HR) as HRs. rewrite !run_tls_raw. apply run_eqv.
  rewrite (raw_split pre R st acc HRs (complete_weaken _ _ Hc) Hp).
  rewrite (raw_split pre (spaces n ++ R) st acc (hd_stop_spaces n R HRs) (complete_weaken _ _ Hc) Hp).
  rewrite lex_from_spaces. apply (raw_with_sim 0 eq inner_ok_eq); [apply tls_rel0_refl|].
  destruct (spaces_state n st) as (H1 & H2 & _ & H4 & _).
  apply (eol_sim 0 eq inner_ok_eq); [exact HR | rewrite H1; apply lex_sh0_refl | symmetry; exact H2 | lia].
Qed.

Theorem C14_trailing_spaces_norm :
  forall pre R n, accepted pre = true -> complete false pre = true -> hd_eol R = true ->
    norm_of (pre ++ spaces n ++ R) = norm_of (pre ++ R).
Proof. intros pre R n H1 H2 H3. apply norm_of_eqv, C14_trailing_spaces; assumption. Qed.

Theorem C14_trailing_comment :
  forall pre R k text,
    ends_on_token_line pre = true -> complete false pre = true ->
    no_eol text = true -> hd_eol R = true ->
    opt_rel (one_more_comment text)
            (run_tls (pre ++ R)) (run_tls (pre ++ spaces (S k) ++ c_hash :: text ++ R)).
Proof. exact trailing_comment. Qed.

Theorem C14_trailing_comment_norm :
  forall pre R k text,
    ends_on_token_line pre = true -> complete false pre = true ->
    no_eol text = true -> hd_eol R = true ->
    norm_of (pre ++ spaces (S k) ++ c_hash :: text ++ R) = norm_of (pre ++ R).
Proof.
  intros pre R k text He Hc Ht HR.
  apply opt_rel_eq, (norm_of_rel _ _ _ _ (knf_one_more_comment text)), trailing_comment; assumption.
Qed.

Theorem C14_final_newline :
  forall s, accepted s = true -> complete true s = true ->
    opt_rel (Forall2 tl_eqv) (run_tls s) (run_tls (s ++ [c_nl])).
Proof.
  intros s Hacc Hc. apply accepted_inv in Hacc as (st & acc & Hp).
  rewrite !run_tls_raw. apply run_eqv. rewrite <- (app_nil_r s) at 1.
  rewrite (raw_split s [] st acc eq_refl Hc Hp), (raw_split s [c_nl] st acc eq_refl Hc Hp).
  rewrite lex_from_nl, !lex_from_nil.
  apply (raw_with_sim 0 eq inner_ok_eq); [apply tls_rel0_refl|]. cbn. split; [reflexivity | constructor].
Qed.

Theorem C14_final_newline_norm :
  forall s, accepted s = true -> complete true s = true -> norm_of (s ++ [c_nl]) = norm_of s.
Proof. intros s H1 H2. apply norm_of_eqv, C14_final_newline; assumption. Qed.

Theorem C14_blank_line :
  forall pre R n, accepted pre = true -> complete true pre = true -> hd_eol R = true ->
    opt_rel (fun l1 l2 => Forall2 tl_eqv l1 l2 \/ nl_inserted l1 l2)
            (run_tls (pre ++ R)) (run_tls (pre ++ c_nl :: spaces n ++ R)).
Proof. exact blank_line. Qed.

Theorem C14_blank_line_norm :
  forall pre R n, accepted pre = true -> complete true pre = true -> hd_eol R = true ->
    norm_of (pre ++ c_nl :: spaces n ++ R) = norm_of (pre ++ R)
    \/ exists k1 k2, norm_of (pre ++ R) = Some (k1 ++ k2)
                     /\ norm_of (pre ++ c_nl :: spaces n ++ R) = Some (k1 ++ MNL :: k2).
Proof.
  intros pre R n H1 H2 H3.
  assert (H : opt_rel (fun n1 n2 => n2 = n1 \/ exists k1 k2, n1 = k1 ++ k2 /\ n2 = k1 ++ MNL :: k2)
                      (norm_of (pre ++ R)) (norm_of (pre ++ c_nl :: spaces n ++ R))).
  { apply (norm_of_rel (fun l1 l2 => Forall2 tl_eqv l1 l2 \/ nl_inserted l1 l2));
      [|apply blank_line; assumption].
    intros l1 l2 [He | Hi]; [left; symmetry; apply knf_eqv, He|]. right.
    apply knf_nl_inserted in Hi as (k1 & z & k2 & _ & -> & ->). exists (k1 ++ [z]), k2.
    rewrite <- !app_assoc. split; reflexivity. }
  destruct (norm_of (pre ++ R)), (norm_of (pre ++ c_nl :: spaces n ++ R)); cbn in H; try contradiction;
    [|left; reflexivity].
  destruct H as [-> | (k1 & k2 & -> & ->)]; [left; reflexivity | right; eauto].
Qed.

Theorem C14_comment_after_token :
  forall pre R k text,
    ends_on_token_line pre = true -> last_indent pre = Some (1 + Z.of_nat k) ->
    complete true pre = true -> no_eol text = true -> hd_eol R = true ->
    opt_rel (comment_line_rel text)
            (run_tls (pre ++ R)) (run_tls (pre ++ c_nl :: spaces k ++ c_hash :: text ++ R)).
Proof. exact comment_after_token. Qed.

Theorem C14_comment_after_token_norm :
  forall pre R k text,
    ends_on_token_line pre = true -> last_indent pre = Some (1 + Z.of_nat k) ->
    complete true pre = true -> no_eol text = true -> hd_eol R = true ->
    match norm_of (pre ++ R), norm_of (pre ++ c_nl :: spaces k ++ c_hash :: text ++ R) with
    | Some n1, Some n2 =>
        exists k1 k2, n1 = k1 ++ k2 /\ n2 = k1 ++ MNL :: k2
                      /\ (forall k3, k2 = MNL :: k3 ->
                            nl_collapse n2 = nl_collapse n1 /\ nl_drop None n2 = nl_drop None n1)
    | None, None => True
    | _, _ => False
    end.
Proof.
  intros pre R k text H1 H2 H3 H4 H5.
  apply (norm_of_rel (comment_line_rel text)
           (fun n1 n2 => exists k1 k2, n1 = k1 ++ k2 /\ n2 = k1 ++ MNL :: k2
              /\ (forall k3, k2 = MNL :: k3 ->
                    nl_collapse n2 = nl_collapse n1 /\ nl_drop None n2 = nl_drop None n1)));
    [|apply comment_after_token; assumption].
  intros l1 l2 H. apply knf_comment_line in H as (k1 & k2 & -> & ->). exists k1, k2.
  split; [reflexivity|]. split; [reflexivity|]. intros k3 ->.
  split; [apply nl_collapse_dup | apply nl_drop_after; left; reflexivity].
Qed.

Theorem C14_blank_line_repaired :
  forall pre R n, accepted pre = true -> complete true pre = true -> hd_eol R = true ->
    repaired_norm_of (pre ++ c_nl :: spaces n ++ R) = repaired_norm_of (pre ++ R).
Proof.
  intros pre R n H1 H2 H3. rewrite !repaired_of_norm.
  assert (H : opt_rel (fun n1 n2 => nl_drop None n2 = nl_drop None n1)
                      (norm_of (pre ++ R)) (norm_of (pre ++ c_nl :: spaces n ++ R))).
  { apply (norm_of_rel (fun l1 l2 => Forall2 tl_eqv l1 l2 \/ nl_inserted l1 l2));
      [|apply blank_line; assumption].
    intros l1 l2 [He | Hi]; [rewrite (knf_eqv _ _ He); reflexivity|].
    apply knf_nl_inserted in Hi as (k1 & z & k2 & Hz & -> & ->). apply nl_drop_after, Hz. }
  destruct (norm_of (pre ++ R)), (norm_of (pre ++ c_nl :: spaces n ++ R)); cbn in H; try contradiction;
    [rewrite H|]; reflexivity.
Qed.

(** Non-vacuity: the hypotheses hold at a line end inside a nested program *)
Definition pre1 : str :=
  s "def f(x: Int) -> Int =>
    if x >= 10 then
        return ""a{x + 1}b""".
Definition rest1 : str :=
  s "
    x + 2

print(f(1.5), 2E3, 1..3)
".
Example pre1_accepted : accepted pre1 = true.
Proof. vm_compute. reflexivity. Qed.
Example pre1_complete : complete false pre1 = true.
Proof. vm_compute. reflexivity. Qed.
Example pre1_token_line : ends_on_token_line pre1 = true.
Proof. vm_compute. reflexivity. Qed.
Example rest1_eol : hd_eol rest1 = true.
Proof. reflexivity. Qed.
Example whole1_crlf_ok : crlf_ok (run_fuel (pre1 ++ rest1)) (pre1 ++ rest1) = true.
Proof. vm_compute. reflexivity. Qed.
Example whole1_complete : accepted (pre1 ++ rest1) = true /\ complete true (pre1 ++ rest1) = true.
Proof. split; vm_compute; reflexivity. Qed.
Example whole1_comment :
  norm_of (pre1 ++ spaces 2 ++ c_hash :: s " note" ++ rest1) = norm_of (pre1 ++ rest1)
  /\ exists ks, norm_of (pre1 ++ rest1) = Some ks /\ (List.length ks > 40)%nat.
Proof. split; [vm_compute; reflexivity|]. eexists. split; [vm_compute; reflexivity | vm_compute; repeat constructor]. Qed.
Example whole1_crlf : tokenize (crlf (pre1 ++ rest1)) = tokenize (pre1 ++ rest1).
Proof. vm_compute. reflexivity. Qed.

(** Refutation: a blank line is visible in [norm_of], even with NL runs collapsed *)
Definition blank_witness1 : str := s "match x
    1 => a
".
Definition blank_witness2 : str := s "match x

    1 => a
".
Theorem C14_blank_line_refuted :
  norm_of blank_witness2 <> norm_of blank_witness1
  /\ nl_norm_of blank_witness2 <> nl_norm_of blank_witness1
  /\ nl_norm_of blank_witness2
     = Some [MMatch; MId (s "x"); MNL; MIndent; MNL; MInt (s "1"); MBTo; MId (s "a"); MDedent; MEof].
Proof. split; [|split]; vm_compute; [discriminate | discriminate | reflexivity]. Qed.

(** with the filter of [AST::from_str] (an NL after an NL or an Indent is dropped) the
    two witnesses are the same for the parser *)
Example blank_line_repaired :
  repaired_norm_of blank_witness2 = repaired_norm_of blank_witness1
  /\ repaired_norm_of (s "if c then
    x
    # c

else
    y
") = repaired_norm_of (s "if c then
    x
else
    y
").
Proof. split; vm_compute; reflexivity. Qed.

(** between statements of one block the extra NL is absorbed by collapsing NL runs *)
Example blank_between_statements :
  nl_norm_of (s "a
b
") = nl_norm_of (s "a

  # c
b
").
Proof. vm_compute. reflexivity. Qed.

Example pre1_complete_eol : complete true pre1 = true.
Proof. vm_compute. reflexivity. Qed.
(** on this instance the blank line does add its NL (the second disjunct) *)
Example whole1_blank :
  exists k1 k2, norm_of (pre1 ++ rest1) = Some (k1 ++ k2)
                /\ norm_of (pre1 ++ c_nl :: spaces 4 ++ rest1) = Some (k1 ++ MNL :: k2).
Proof.
  destruct (C14_blank_line_norm pre1 rest1 4 pre1_accepted pre1_complete_eol rest1_eol) as [H | H]; [|exact H].
  exfalso. vm_compute in H. discriminate H.
Qed.

Example pre1_last_indent : last_indent pre1 = Some (1 + Z.of_nat 8).
Proof. vm_compute. reflexivity. Qed.
Example whole1_comment_line :
  nl_norm_of (pre1 ++ c_nl :: spaces 8 ++ c_hash :: s " note" ++ rest1) = nl_norm_of (pre1 ++ rest1).
Proof. vm_compute. reflexivity. Qed.

Check C14_tokenize_total : forall s, tokenize s <> OutOfFuel.
Check C14_crlf_same : forall s, crlf_ok (run_fuel s) s = true -> tokenize (crlf s) = tokenize s.
Check C14_trailing_spaces :
  forall pre R n, accepted pre = true -> complete false pre = true -> hd_eol R = true ->
    opt_rel (Forall2 tl_eqv) (run_tls (pre ++ R)) (run_tls (pre ++ spaces n ++ R)).
Check C14_trailing_spaces_norm :
  forall pre R n, accepted pre = true -> complete false pre = true -> hd_eol R = true ->
    norm_of (pre ++ spaces n ++ R) = norm_of (pre ++ R).
Check C14_trailing_comment :
  forall pre R k text, ends_on_token_line pre = true -> complete false pre = true ->
    no_eol text = true -> hd_eol R = true ->
    opt_rel (one_more_comment text)
            (run_tls (pre ++ R)) (run_tls (pre ++ spaces (S k) ++ c_hash :: text ++ R)).
Check C14_trailing_comment_norm :
  forall pre R k text, ends_on_token_line pre = true -> complete false pre = true ->
    no_eol text = true -> hd_eol R = true ->
    norm_of (pre ++ spaces (S k) ++ c_hash :: text ++ R) = norm_of (pre ++ R).
Check C14_final_newline :
  forall s, accepted s = true -> complete true s = true ->
    opt_rel (Forall2 tl_eqv) (run_tls s) (run_tls (s ++ [c_nl])).
Check C14_final_newline_norm :
  forall s, accepted s = true -> complete true s = true -> norm_of (s ++ [c_nl]) = norm_of s.
Check C14_blank_line :
  forall pre R n, accepted pre = true -> complete true pre = true -> hd_eol R = true ->
    opt_rel (fun l1 l2 => Forall2 tl_eqv l1 l2 \/ nl_inserted l1 l2)
            (run_tls (pre ++ R)) (run_tls (pre ++ c_nl :: spaces n ++ R)).
Check C14_blank_line_norm :
  forall pre R n, accepted pre = true -> complete true pre = true -> hd_eol R = true ->
    norm_of (pre ++ c_nl :: spaces n ++ R) = norm_of (pre ++ R)
    \/ exists k1 k2, norm_of (pre ++ R) = Some (k1 ++ k2)
                     /\ norm_of (pre ++ c_nl :: spaces n ++ R) = Some (k1 ++ MNL :: k2).
Check C14_comment_after_token :
  forall pre R k text,
    ends_on_token_line pre = true -> last_indent pre = Some (1 + Z.of_nat k) ->
    complete true pre = true -> no_eol text = true -> hd_eol R = true ->
    opt_rel (comment_line_rel text)
            (run_tls (pre ++ R)) (run_tls (pre ++ c_nl :: spaces k ++ c_hash :: text ++ R)).
Check C14_comment_after_token_norm :
  forall pre R k text,
    ends_on_token_line pre = true -> last_indent pre = Some (1 + Z.of_nat k) ->
    complete true pre = true -> no_eol text = true -> hd_eol R = true ->
    match norm_of (pre ++ R), norm_of (pre ++ c_nl :: spaces k ++ c_hash :: text ++ R) with
    | Some n1, Some n2 =>
        exists k1 k2, n1 = k1 ++ k2 /\ n2 = k1 ++ MNL :: k2
                      /\ (forall k3, k2 = MNL :: k3 ->
                            nl_collapse n2 = nl_collapse n1 /\ nl_drop None n2 = nl_drop None n1)
    | None, None => True
    | _, _ => False
    end.
Check C14_blank_line_repaired :
  forall pre R n, accepted pre = true -> complete true pre = true -> hd_eol R = true ->
    repaired_norm_of (pre ++ c_nl :: spaces n ++ R) = repaired_norm_of (pre ++ R).
Print Assumptions C14_tokenize_total.
Print Assumptions C14_crlf_same.
Print Assumptions C14_trailing_spaces.
Print Assumptions C14_trailing_spaces_norm.
Print Assumptions C14_trailing_comment.
Print Assumptions C14_trailing_comment_norm.
Print Assumptions C14_final_newline.
Print Assumptions C14_final_newline_norm.
Print Assumptions C14_blank_line.
Print Assumptions C14_blank_line_norm.
Print Assumptions C14_blank_line_repaired.
Print Assumptions C14_comment_after_token.
Print Assumptions C14_comment_after_token_norm.
Print Assumptions C14_blank_line_refuted.
