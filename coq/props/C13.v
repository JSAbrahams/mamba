(** * C13 - projects: all-or-nothing, mirrored layout, order-independent, non-interfering

    Model: [model/Project.v] ([transpile_dir], [mamba_to_python], io.rs, the context merge) over an
    abstract file system; the per-file stages and the built-in tables are the fields of a [world].
    Every theorem is for ALL worlds, ALL file systems (association lists path -> node), ALL file lists
    and ALL enumeration orders of the context's hash sets, unless a hypothesis says otherwise.

    Hypotheses validated by the correspondence runs, not proved of the Rust code: about the stage
    parameters, [key_compat] (equal set keys have equal look-up names) and [stages_extensional] /
    [stages_local] (the checker and generator read the context only through the four by-name
    look-ups); about the enumeration, [ord_ok] (a hash set enumerates exactly its elements).
    The model follows /repo as of 2d1bc77 (glob skips non-files: c8709a7; context errors name files: 2d1bc77). *)
From Coq Require Import List String Bool Permutation.
Import ListNotations.
Local Open Scope string_scope.
Local Open Scope list_scope.
Local Open Scope bool_scope.
From MambaModel Require Import model.Project proofs.ProjectFs proofs.ProjectProps proofs.ProjectToy.

(** Any error result whose diagnostics are not a failed write leaves the tree as it was, except that
    the (empty) target directory may have been created. *)
Theorem C13_all_or_nothing :
  forall (W : world) ord fs dir src target ann fs' es,
    tdir W ord fs dir src target ann = (fs', Err es) ->
    existsb is_write_err es = false ->
    only_target_created fs fs' (out_of dir target).
Proof. exact all_or_nothing. Qed.

(** If the pipeline rejects the project (some file fails a stage), the run is an error carrying exactly
    the pipeline's diagnostics and no file appears, disappears or changes. *)
Theorem C13_stage_failure_writes_nothing :
  forall (W : world) ord fs dir src target ann fs1 sources es,
    negb (is_file fs (src_of dir src)) && negb (is_dir fs (src_of dir src)) = false ->
    prepare fs (out_of dir target) = Some fs1 ->
    @read_all (w_msg W) fs1 (inputs_of fs1 (src_of dir src)) = Ok sources ->
    m2p W ord ann (combine sources (map Some (inputs_of fs1 (src_of dir src)))) (src_of dir src) = Err es ->
    tdir W ord fs dir src target ann = (fs1, Err es) /\ only_target_created fs fs1 (out_of dir target) /\
    (forall q t, fs_get fs1 q = Some (File t) <-> fs_get fs q = Some (File t)).
Proof.
  intros W ord fs dir src target ann fs1 sources es H0 P R M. unfold tdir, transpile_dir. rewrite H0, P, R.
  unfold m2p in M. rewrite M. apply prepare_spec in P. destruct P as [P _].
  split; [reflexivity|]. split; [assumption | now apply (only_target_files _ _ (out_of dir target))].
Qed.

(** The pipeline succeeds exactly when the shared context builds and every file parses, checks and
    generates against it. *)
Theorem C13_pipeline_ok_iff :
  forall (W : world) ord ann source dir pys,
    m2p W ord ann source dir = Ok pys <->
    exists ctx, w_build_ctx W (asts_of W source) = Ok ctx /\
                Forall2 (fun (sp : input) py => file_out W ann (w_lookups W ord ctx) (fst sp) = Some py) source pys.
Proof. exact m2p_ok_iff. Qed.

(** Diagnostics name their files: every diagnostic of every stage carries the stripped path of an input
    that fails that stage with that message; for the context stage (since 2d1bc77) the file is one
    whose own context - its declarations alone - cannot be built.  The fallback branch of the Rust code
    (no file fails alone: errors without path) is in the model and is reached only with an empty error
    list, because in the model the shared context fails exactly when some file's own context fails.
    PARTIAL with respect to the code, where the shared context can fail although every file's own context
    builds, and the fallback then gives path-less diagnostics: when the built-in stubs fail to load, and for
    an inheritance cycle through classes of different files ([check_inheritance_acyclic] at the end of
    [Context::try_from], /repo 8b50830, later than the version modelled).  Neither is modelled. *)
Theorem C13_errors_name_files :
  forall (W : world) ord ann source dir es,
    m2p W ord ann source dir = Err es -> Forall (blames W ord ann source dir) es.
Proof.
  intros W ord ann source dir es H. apply Forall_forall. intros e Ie.
  destruct (m2p_err_cases _ _ _ _ _ _ H) as [->|[_ [(ms & B & ->)|(ctx & B & [->| ->])]]].
  - apply in_parse_errs in Ie. destruct Ie as (s & p & m & I & Pm & ->).
    apply in_stripped in I. destruct I as (p0 & I & ->). cbn. now exists s, p0.
  - apply in_ctx_blame in Ie. destruct Ie as (a & p & ms' & m & I & Ba & Im & ->).
    apply in_parse_oks in I. destruct I as (s & p0 & I & -> & Pa). cbn. now exists s, p0, a, ms'.
  - apply in_concat_check_errs in Ie. destruct Ie as (a & p & ms & m & I & Ca & Im & ->).
    apply in_parse_oks in I. destruct I as (s & p0 & I & -> & Pa). cbn. now exists s, p0, a, ctx, ms.
  - apply in_gen_errs in Ie. destruct Ie as (t & p & m & I & Gm & ->).
    apply in_check_oks in I. destruct I as (a & I & Ca).
    apply in_parse_oks in I. destruct I as (s & p0 & I & -> & Pa). cbn. now exists s, p0, a, ctx, t.
Qed.

(** what [blames] says for a context-stage diagnostic, spelled out *)
Theorem C13_ctx_errors_name_files :
  forall (W : world) ord ann source dir es p m,
    m2p W ord ann source dir = Err es -> In (EStage SCtx p m) es ->
    exists s p0 a ms, In (s, p0) source /\ p = option_map (strip_prefix dir) p0 /\ w_parse W s = Ok a /\
                      w_build_ctx W [a] = Err ms /\ In m ms.
Proof.
  intros W ord ann source dir es p m H I. apply C13_errors_name_files in H.
  exact (proj1 (Forall_forall _ _) H _ I).
Qed.

Theorem C13_pathless_error_pathless_input :
  forall (W : world) ord ann source dir es st m,
    m2p W ord ann source dir = Err es -> In (EStage st None m) es -> exists s, In (s, None) source.
Proof.
  intros W ord ann source dir es st m H I. apply C13_errors_name_files in H.
  apply (proj1 (Forall_forall _ _) H), blames_path in I.
  destruct I as (s & [p0|] & I & E); [discriminate | now exists s].
Qed.

(** The converse, for the context, parse and check stages: a file that fails the first stage to reject
    anything is reported - each of its messages appears under its stripped path - and the run's
    diagnostics are all of that stage. *)
Theorem C13_ctx_failure_reported :
  forall (W : world) ord ann source dir s p0 a ms,
    parse_errs W (stripped dir source) = [] ->
    In (s, p0) source -> w_parse W s = Ok a -> w_build_ctx W [a] = Err ms ->
    exists es, m2p W ord ann source dir = Err es /\
               (forall m, In m ms -> In (EStage SCtx (option_map (strip_prefix dir) p0) m) es) /\
               Forall (fun e => exists p m', e = EStage SCtx p m') es.
Proof.
  intros W ord ann source dir s p0 a ms Pe I P B.
  assert (Hall : forall m, In m ms -> In (EStage SCtx (option_map (strip_prefix dir) p0) m)
                                         (w_ctx_blame W (parse_oks W (stripped dir source)))).
  { intros m Im. apply in_ctx_blame. exists a, (option_map (strip_prefix dir) p0), ms, m.
    repeat split; try assumption. apply in_parse_oks. now exists s, p0. }
  destruct (w_build_ctx W (asts_of W source)) as [ctx|ms'] eqn:B'.
  { destruct (proj1 (build_ctx_ok_iff W _) (ex_intro _ ctx B') a) as [d D]; [apply asts_of_in; now exists s, p0|].
    apply build_ctx_single in B. congruence. }
  exists (w_ctx_blame W (parse_oks W (stripped dir source))). split; [|split; [exact Hall|]].
  - rewrite m2p_eq. unfold m2p_spec. cbv zeta. rewrite Pe, B'. cbn [guard]. f_equal. apply ctx_errs_blame.
    now rewrite asts_of_oks.
  - apply Forall_forall. intros x Ix. apply in_ctx_blame in Ix.
    destruct Ix as (a' & p' & ms'' & m' & _ & _ & _ & ->). now exists p', m'.
Qed.

Theorem C13_parse_failure_reported :
  forall (W : world) ord ann source dir s p0 m,
    In (s, p0) source -> w_parse W s = Err m ->
    exists es, m2p W ord ann source dir = Err es /\
               In (EStage SParse (option_map (strip_prefix dir) p0) m) es /\
               Forall (fun e => exists p m', e = EStage SParse p m') es.
Proof.
  intros W ord ann source dir s p0 m I P.
  assert (Ie : In (EStage SParse (option_map (strip_prefix dir) p0) m) (parse_errs W (stripped dir source))).
  { apply in_parse_errs. exists s, (option_map (strip_prefix dir) p0), m. repeat split; try assumption.
    apply in_stripped. now exists p0. }
  exists (parse_errs W (stripped dir source)). split; [|split; [exact Ie|]].
  - rewrite m2p_eq. unfold m2p_spec. cbv zeta. apply guard_err. left. split; [intro F; now rewrite F in Ie | reflexivity].
  - apply Forall_forall. intros x Ix. apply in_parse_errs in Ix. destruct Ix as (s' & p' & m' & _ & _ & ->). now exists p', m'.
Qed.

Theorem C13_check_failure_reported :
  forall (W : world) ord ann source dir ctx s p0 a ms,
    parse_errs W (stripped dir source) = [] -> w_build_ctx W (asts_of W source) = Ok ctx ->
    In (s, p0) source -> w_parse W s = Ok a -> w_check W (w_lookups W ord ctx) a = Err ms ->
    exists es, m2p W ord ann source dir = Err es /\
               (forall m, In m ms -> In (EStage SCheck (option_map (strip_prefix dir) p0) m) es) /\
               Forall (fun e => exists p m', e = EStage SCheck p m') es.
Proof.
  intros W ord ann source dir ctx s p0 a ms Pe B I P C.
  set (lk := w_lookups W ord ctx) in *. set (l := parse_oks W (stripped dir source)).
  assert (Ia : In (a, option_map (strip_prefix dir) p0) l) by (apply in_parse_oks; now exists s, p0).
  assert (Ix : In (map (EStage SCheck (option_map (strip_prefix dir) p0)) ms) (check_errs W lk l)).
  { apply in_check_errs. now exists a, (option_map (strip_prefix dir) p0), ms. }
  exists (List.concat (check_errs W lk l)). split; [|split].
  - rewrite m2p_eq. unfold m2p_spec. cbv zeta. rewrite Pe, B. cbn [guard]. apply guard_err. left.
    split; [intro F; fold lk l in F; now rewrite F in Ix | reflexivity].
  - intros m Im. apply in_concat_check_errs. now exists a, (option_map (strip_prefix dir) p0), ms, m.
  - apply Forall_forall. intros x Hx. apply in_concat_check_errs in Hx.
    destruct Hx as (a' & p' & ms' & m' & _ & _ & _ & ->). now exists p', m'.
Qed.

(** On success: the run went through every step; the i-th output path (target / relative path with
    extension py) holds the CRLF-normalised Python of the i-th source (when output paths are pairwise
    distinct); every output path is a file; any other path is unchanged or is a newly created
    directory that is a proper ancestor of an output path; directories stay directories. *)
Theorem C13_mirrored :
  forall (W : world) ord fs dir src target ann fs' o,
    tdir W ord fs dir src target ann = (fs', Ok o) ->
    exists fs1 sources pys,
      let sp := src_of dir src in
      let ins := inputs_of fs1 sp in
      let outs := out_paths fs1 sp o in
      o = out_of dir target /\ negb (is_file fs sp) && negb (is_dir fs sp) = false /\
      prepare fs o = Some fs1 /\ only_target_created fs fs1 o /\
      @read_all (w_msg W) fs1 ins = Ok sources /\
      m2p W ord ann (combine sources (map Some ins)) sp = Ok pys /\
      List.length pys = List.length outs /\ List.length sources = List.length outs /\
      (NoDup outs -> forall py out, In (py, out) (combine pys outs) -> fs_get fs' out = Some (File (crlf py))) /\
      (forall out, In out outs -> exists t, fs_get fs' out = Some (File t)) /\
      (forall q, ~ In q outs ->
         fs_get fs' q = fs_get fs1 q \/
         (changed_to_dir fs1 fs' q /\ exists out, In out outs /\ strict_prefix q out)) /\
      keeps_dirs fs1 fs' /\
      (forall py out, In (py, out) (combine pys outs) -> dirs_exist fs' [] (parent out)) /\
      write_all fs1 (combine pys (map (fun r => o ++ r) (relative_files fs1 sp))) = (fs', @None (err (w_msg W))).
Proof. exact mirrored. Qed.

(** Output paths are pairwise distinct when the tree has one node per path and no node is named
    exactly ".mamba". *)
Theorem C13_out_paths_nodup :
  forall fs1 sp od,
    NoDup (map fst fs1) ->
    (forall p, In p (map fst fs1) -> file_name p <> ".mamba") ->
    NoDup (out_paths fs1 sp od).
Proof.
  intros fs1 sp od D Hn. unfold out_paths, relative_files. destruct (is_file fs1 sp).
  - cbn. constructor; [tauto | constructor].
  - unfold glob_mamba. fold (glob_pick sp). apply nodup_map_on.
    + assert (G : forall r, In r (sort_paths (flat_map (glob_pick sp) fs1)) ->
                  od ++ r <> [] /\ is_mamba (file_name (od ++ r)) = true /\ file_name (od ++ r) <> ".mamba").
      { intros r I. apply (Permutation_in _ (sort_perm _)), pick_in in I. destruct I as (n & I & R & M).
        split; [intro F; apply app_eq_nil in F; tauto|]. unfold file_name in *. rewrite last_app_ne by assumption.
        split; [assumption|]. rewrite <- (last_app_ne _ sp r "") by assumption.
        apply Hn, in_map_iff. now exists (sp ++ r, File n). }
      intros r1 r2 I1 I2 Heq. destruct (G _ I1) as (A1 & M1 & N1), (G _ I2) as (A2 & M2 & N2).
      apply with_ext_path_inj in Heq; try assumption. now apply app_inv_head in Heq.
    + apply (Permutation_NoDup (Permutation_sym (sort_perm _))). now apply pick_nodup.
Qed.

(** Running again into the populated target changes nothing, when neither of source and target is inside
    the other and the output paths are pairwise distinct. *)
Theorem C13_rerun_idempotent :
  forall (W : world) ord fs dir src target ann fs' o,
    ~ is_prefix (src_of dir src) (out_of dir target) ->
    ~ is_prefix (out_of dir target) (src_of dir src) ->
    (forall fs1, prepare fs (out_of dir target) = Some fs1 ->
                 NoDup (out_paths fs1 (src_of dir src) (out_of dir target))) ->
    tdir W ord fs dir src target ann = (fs', Ok o) ->
    tdir W ord fs' dir src target ann = (fs', Ok o).
Proof. exact rerun_idempotent. Qed.

(** the same with the side condition on output paths discharged from the shape of the tree: one node
    per path, nothing named exactly ".mamba" *)
Theorem C13_rerun_idempotent_wf :
  forall (W : world) ord fs dir src target ann fs' o,
    ~ is_prefix (src_of dir src) (out_of dir target) ->
    ~ is_prefix (out_of dir target) (src_of dir src) ->
    NoDup (map fst fs) ->
    (forall p, In p (map fst fs) -> file_name p <> ".mamba") ->
    file_name (out_of dir target) <> ".mamba" ->
    tdir W ord fs dir src target ann = (fs', Ok o) ->
    tdir W ord fs' dir src target ann = (fs', Ok o).
Proof.
  intros W ord fs dir src target ann fs' o N1 N2 D Hn Ho H.
  apply (rerun_idempotent W ord fs); try assumption.
  intros fs1 P. destruct (prepare_keys _ _ _ P D) as [D1 K1].
  apply C13_out_paths_nodup; [assumption|]. intros p Hp. destruct (K1 p Hp) as [Hq | ->]; [now apply Hn | assumption].
Qed.

(** The order of the files and the enumeration of the context decide nothing when names are unique. *)
Theorem C13_order_independent :
  forall (W : world) ord ord' ann source source' dir dir' pys,
    key_compat W -> ord_ok ord -> ord_ok ord' -> stages_extensional W ->
    Permutation source source' -> uniq_names W (asts_of W source) ->
    m2p W ord ann source dir = Ok pys ->
    exists (f : input -> string) pys',
      m2p W ord' ann source' dir' = Ok pys' /\ pys = map f source /\ pys' = map f source'.
Proof. exact order_independent. Qed.

Theorem C13_order_independent_verdict :
  forall (W : world) ord ord' ann source source' dir dir',
    key_compat W -> ord_ok ord -> ord_ok ord' -> stages_extensional W ->
    Permutation source source' -> uniq_names W (asts_of W source) ->
    ((exists pys, m2p W ord ann source dir = Ok pys) <-> (exists pys', m2p W ord' ann source' dir' = Ok pys')).
Proof.
  intros W ord ord' ann source source' dir dir' Kc O O' X P U. split.
  - intros [pys H].
    destruct (C13_order_independent W ord ord' ann source source' dir dir' pys Kc O O' X P U H) as (f & pys' & H' & _).
    now exists pys'.
  - intros [pys' H'].
    assert (U' : uniq_names W (asts_of W source')).
    { apply (uniq_names_incl W (asts_of W source)); [|exact U]. apply asts_of_incl.
      intros x Hx. now apply (Permutation_in _ (Permutation_sym P)). }
    destruct (C13_order_independent W ord' ord ann source' source dir' dir pys' Kc O' O X (Permutation_sym P) U' H')
      as (f & pys & H & _).
    now exists pys.
Qed.

(** A file that declares nothing the others refer to does not change what they compile to. *)
Theorem C13_fresh_file_inert :
  forall (W : world) ord ord' ann refs l1 l2 new_s new_p new_a new_d ctx ctx',
    key_compat W -> ord_ok ord -> ord_ok ord' -> stages_local W refs ->
    w_parse W new_s = Ok new_a -> w_decls_of W new_a = Ok new_d ->
    uniq_names W (asts_of W (l1 ++ (new_s, new_p) :: l2)) ->
    w_build_ctx W (asts_of W (l1 ++ l2)) = Ok ctx ->
    w_build_ctx W (asts_of W (l1 ++ (new_s, new_p) :: l2)) = Ok ctx' ->
    (forall s p a, In (s, p) (l1 ++ l2) -> w_parse W s = Ok a ->
                   forall k, In k (refs a) -> ~ In k (declared_names W new_d)) ->
    forall s p, In (s, p) (l1 ++ l2) ->
      file_out W ann (w_lookups W ord' ctx') s = file_out W ann (w_lookups W ord ctx) s.
Proof. exact fresh_file_inert. Qed.

Theorem C13_fresh_file_project :
  forall (W : world) ord ord' ann refs l1 l2 new_s new_p new_a new_d dir dir' pys py_new,
    key_compat W -> ord_ok ord -> ord_ok ord' -> stages_local W refs ->
    w_parse W new_s = Ok new_a -> w_decls_of W new_a = Ok new_d ->
    uniq_names W (asts_of W (l1 ++ (new_s, new_p) :: l2)) ->
    (forall s p a, In (s, p) (l1 ++ l2) -> w_parse W s = Ok a ->
                   forall k, In k (refs a) -> ~ In k (declared_names W new_d)) ->
    (forall ctx', w_build_ctx W (asts_of W (l1 ++ (new_s, new_p) :: l2)) = Ok ctx' ->
                  file_out W ann (w_lookups W ord' ctx') new_s = Some py_new) ->
    m2p W ord ann (l1 ++ l2) dir = Ok pys ->
    exists p1 p2, pys = p1 ++ p2 /\ List.length p1 = List.length l1 /\
                  m2p W ord' ann (l1 ++ (new_s, new_p) :: l2) dir' = Ok (p1 ++ py_new :: p2).
Proof.
  intros W ord ord' ann refs l1 l2 new_s new_p new_a new_d dir dir' pys py_new Kc O O' L P D U Fr Hnew H.
  apply m2p_ok_iff in H. destruct H as (ctx & B & F).
  destruct (proj2 (build_ctx_ok_iff W (asts_of W (l1 ++ (new_s, new_p) :: l2)))) as [ctx' B'].
  { intros a Ia. rewrite (asts_of_insert W _ _ _ _ _ P) in Ia. apply in_app_or in Ia.
    destruct Ia as [Ia|[<-|Ia]]; [|now exists new_d|];
      apply (proj1 (build_ctx_ok_iff W (asts_of W (l1 ++ l2)))); try (now exists ctx);
      rewrite (asts_of_app W); apply in_or_app; [now left | now right]. }
  assert (Eq : forall s p, In (s, p) (l1 ++ l2) ->
               file_out W ann (w_lookups W ord' ctx') s = file_out W ann (w_lookups W ord ctx) s).
  { now apply (C13_fresh_file_inert W ord ord' ann refs l1 l2 new_s new_p new_a new_d ctx ctx'). }
  apply Forall2_app_inv_l in F. destruct F as (p1 & p2 & F1 & F2 & ->).
  exists p1, p2. split; [reflexivity|]. split; [symmetry; now apply (Forall2_len _ _ _ _ _ F1)|].
  apply m2p_ok_iff. exists ctx'. split; [assumption|]. apply Forall2_app; [|constructor].
  - apply (forall2_impl_in _ _ _ _ _ _ F1). intros [s p] py Hin Hr. cbn [fst] in *.
    rewrite (Eq s p); [assumption | apply in_or_app; now left].
  - cbn [fst]. now apply Hnew.
  - apply (forall2_impl_in _ _ _ _ _ _ F2). intros [s p] py Hin Hr. cbn [fst] in *.
    rewrite (Eq s p); [assumption | apply in_or_app; now right].
Qed.

(** Definitions of one file are visible to the checker in every other: the look-ups of the shared context
    find a definition of that name, and that very definition when names are unique. *)
Theorem C13_cross_file_visible :
  forall (W : world) ord source ctx s p a d,
    key_compat W -> ord_ok ord -> w_build_ctx W (asts_of W source) = Ok ctx ->
    In (s, p) source -> w_parse W s = Ok a -> w_decls_of W a = Ok d ->
    (forall c, In c (d_classes d) ->
       exists c', lk_class (w_lookups W ord ctx) (w_c_base W c) = Some c' /\ w_c_base W c' = w_c_base W c /\
                  (uniq_names W (asts_of W source) -> c' = c)) /\
    (forall f, In f (d_funs d) ->
       exists f', lk_fun (w_lookups W ord ctx) (w_f_name W f) = Some f' /\ w_f_name W f' = w_f_name W f /\
                  (uniq_names W (asts_of W source) -> f' = f)) /\
    (forall x, In x (d_fields d) ->
       exists x', lk_field (w_lookups W ord ctx) (w_d_name W x) = Some x' /\ w_d_name W x' = w_d_name W x /\
                  (uniq_names W (asts_of W source) -> x' = x)).
Proof. exact cross_file_visible. Qed.

(** without unique names, file order decides which duplicate class wins *)
Theorem C13_order_independent_without_unique_names_refuted :
  exists (source source' : list input) pys pys' i py py',
    key_compat toy /\ stages_extensional toy /\ ord_ok ord_id /\ Permutation source source' /\
    m2p toy ord_id false source ["src"] = Ok pys /\ m2p toy ord_id false source' ["src"] = Ok pys' /\
    In (i, py) (combine source pys) /\ In (i, py') (combine source' pys') /\ py <> py'.
Proof.
  exists [("cFx", Some ["src"; "a.mamba"]); ("cFy", Some ["src"; "b.mamba"]); ("uF_", Some ["src"; "u.mamba"])],
         [("cFy", Some ["src"; "b.mamba"]); ("cFx", Some ["src"; "a.mamba"]); ("uF_", Some ["src"; "u.mamba"])],
         ["CF"; "CF"; "x"], ["CF"; "CF"; "y"], ("uF_", Some ["src"; "u.mamba"]), "x", "y".
  split; [apply toy_compat|]. split; [apply toy_extensional|]. split; [apply ord_id_ok|].
  split; [apply perm_swap|]. split; [vm_compute; reflexivity|]. split; [vm_compute; reflexivity|].
  split; [cbn; tauto|]. split; [cbn; tauto | discriminate].
Qed.

(** same-named functions with different signatures: the hash enumeration decides *)
Theorem C13_enumeration_dependent_refuted :
  exists (source : list input) pys pys',
    key_compat toy /\ stages_extensional toy /\ ord_ok ord_id /\ ord_ok ord_rev /\
    m2p toy ord_id false source [] = Ok pys /\ m2p toy ord_rev false source [] = Ok pys' /\ pys <> pys'.
Proof.
  exists [("fhi", None); ("fhj", None); ("gh_", None)], ["Fh"; "Fh"; "i"], ["Fh"; "Fh"; "j"].
  split; [apply toy_compat|]. split; [apply toy_extensional|]. split; [apply ord_id_ok|]. split; [apply ord_rev_ok|].
  split; [vm_compute; reflexivity|]. split; [vm_compute; reflexivity | discriminate].
Qed.

(** "error implies nothing written" fails when a write fails in the middle of the loop *)
Theorem C13_error_implies_nothing_written_refuted :
  exists fs fs' es p t,
    tdir toy ord_id fs [] None None false = (fs', Err es) /\
    fs_get fs p = None /\ fs_get fs' p = Some (File t).
Proof.
  exists fs_conflict. eexists. exists [EIo IoMkdirs (Some ["target"; "x.py"])], ["target"; "x.py"], "CA".
  split; [vm_compute; reflexivity | split; reflexivity].
Qed.

(** "exactly one .py per .mamba" fails for the pair .mamba / .mamba.mamba *)
Theorem C13_one_output_per_source_refuted :
  exists fs fs' o,
    NoDup (map fst fs) /\
    tdir toy ord_id fs [] None None false = (fs', Ok o) /\
    List.length (relative_files fs ["src"]) = 2 /\
    out_paths fs' ["src"] o = [["target"; ".mamba.py"]; ["target"; ".mamba.py"]].
Proof.
  exists fs_dot. eexists. exists ["target"]. split; [|split; [vm_compute; reflexivity | split; reflexivity]].
  cbn. repeat constructor; cbn; intuition discriminate.
Qed.

(** the hypotheses are satisfiable (toy world, project with cross-file use) *)
Example C13_hypotheses_satisfiable :
  key_compat toy /\ stages_extensional toy /\ stages_local toy trefs /\ ord_ok ord_id /\ ord_ok ord_rev /\
  uniq_names toy (asts_of toy source0) /\
  m2p toy ord_id false source0 ["src"] = Ok ["CFFh"; "xix"] /\
  m2p toy ord_rev false (rev source0) ["src"] = Ok ["xix"; "CFFh"].
Proof. exact toy_hypotheses. Qed.

Example C13_example_ctx_error_attributed :
  m2p toy ord_id false [("cFx", Some ["src"; "a.mamba"]); ("?__", Some ["src"; "b.mamba"]); ("uF_", Some ["src"; "u.mamba"])] ["src"]
  = Err [EStage SCtx (Some ["src"; "b.mamba"]) "bad declaration"].
Proof. exact ctx_error_attributed. Qed.

Example C13_example_dir_named_mamba_skipped :
  tdir toy ord_id [ (["src"], Dir); (["src"; "x.mamba"], File "cAx"); (["src"; "d.mamba"], Dir) ] [] None None false =
  ([ (["src"], Dir); (["src"; "x.mamba"], File "cAx"); (["src"; "d.mamba"], Dir); (["target"], Dir);
     (["target"; "x.py"], File "CA") ], Ok ["target"]).
Proof. exact dir_named_mamba_skipped. Qed.

Example C13_example_run : tdir toy ord_id fs0 [] None None false = (fs0_after, Ok ["target"]).
Proof. exact toy_run. Qed.

Example C13_example_rerun : tdir toy ord_id fs0_after [] None None false = (fs0_after, Ok ["target"]).
Proof. exact toy_rerun. Qed.

Example C13_example_faulty :
  tdir toy ord_id (fs_set fs0 ["src"; "c.mamba"] (File "uZ_")) [] None None false =
  (fs_set fs0 ["src"; "c.mamba"] (File "uZ_"),
   Err [EStage SCheck (Some ["src"; "c.mamba"]) "class Z is undefined"]).
Proof. exact toy_faulty. Qed.

(* each [Check] pins the statement of the theorem it names *)
Check C13_all_or_nothing :
  forall (W : world) ord fs dir src target ann fs' es,
    tdir W ord fs dir src target ann = (fs', Err es) ->
    existsb is_write_err es = false ->
    only_target_created fs fs' (out_of dir target).
Check C13_rerun_idempotent :
  forall (W : world) ord fs dir src target ann fs' o,
    ~ is_prefix (src_of dir src) (out_of dir target) ->
    ~ is_prefix (out_of dir target) (src_of dir src) ->
    (forall fs1, prepare fs (out_of dir target) = Some fs1 ->
                 NoDup (out_paths fs1 (src_of dir src) (out_of dir target))) ->
    tdir W ord fs dir src target ann = (fs', Ok o) ->
    tdir W ord fs' dir src target ann = (fs', Ok o).
Check C13_order_independent :
  forall (W : world) ord ord' ann source source' dir dir' pys,
    key_compat W -> ord_ok ord -> ord_ok ord' -> stages_extensional W ->
    Permutation source source' -> uniq_names W (asts_of W source) ->
    m2p W ord ann source dir = Ok pys ->
    exists (f : input -> string) pys',
      m2p W ord' ann source' dir' = Ok pys' /\ pys = map f source /\ pys' = map f source'.
Check C13_pipeline_ok_iff :
  forall (W : world) ord ann source dir pys,
    m2p W ord ann source dir = Ok pys <->
    exists ctx, w_build_ctx W (asts_of W source) = Ok ctx /\
                Forall2 (fun (sp : input) py => file_out W ann (w_lookups W ord ctx) (fst sp) = Some py) source pys.

Print Assumptions C13_all_or_nothing.
Print Assumptions C13_stage_failure_writes_nothing.
Print Assumptions C13_pipeline_ok_iff.
Print Assumptions C13_errors_name_files.
Print Assumptions C13_ctx_errors_name_files.
Print Assumptions C13_pathless_error_pathless_input.
Print Assumptions C13_ctx_failure_reported.
Print Assumptions C13_parse_failure_reported.
Print Assumptions C13_check_failure_reported.
Print Assumptions C13_mirrored.
Print Assumptions C13_out_paths_nodup.
Print Assumptions C13_rerun_idempotent.
Print Assumptions C13_rerun_idempotent_wf.
Print Assumptions C13_order_independent.
Print Assumptions C13_order_independent_verdict.
Print Assumptions C13_fresh_file_inert.
Print Assumptions C13_fresh_file_project.
Print Assumptions C13_cross_file_visible.
Print Assumptions C13_order_independent_without_unique_names_refuted.
Print Assumptions C13_enumeration_dependent_refuted.
Print Assumptions C13_error_implies_nothing_written_refuted.
Print Assumptions C13_one_output_per_source_refuted.
Print Assumptions C13_hypotheses_satisfiable.
