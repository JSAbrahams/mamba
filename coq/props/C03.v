(** * C03 - totality: any input yields output or diagnostics, never a crash or hang

    The property quantifies over the whole pipeline.  What is PROVED here concerns two modelled
    stages only, and is therefore named [C03_partial]:

    Lexer (model [model/Lex.v], tied to [src/parse/lex] by the generated keyword/spelling tables
    and the byte-for-byte `lex` correspondence run by C18 and, on the C03 campaign inputs, by
    lib/vlib/c03.py):
    - [C03_lex_total]        [tokenize s] is never [OutOfFuel]: the loop of [tokenize] and the
                             recursion of [tokenize_direct] on interpolated expressions terminate
                             for every input, at every nesting of strings inside braces;
    - [C03_lex_steps]        the number of [into_tokens] calls, nested re-lexing included, is at
                             most [length s * (1 + depth s)], and [2 * depth s <= length s]
                             (so at most quadratic; linear when strings do not nest), where the
                             counted loop is proved to compute exactly [tokenize]'s loop;
    - [C03_lex_no_panic]     the partial Rust operations the scanner performs are applied inside
                             their domain: the slice [cur_expr[0..len-1]] only to a non-empty text
                             ending in the one-byte [}]; the [as usize] casts that size
                             [vec![..; amount]] only to non-negative numbers; [CaretPos::offset]
                             ([a + b - 1] in [usize]) only with [b >= 1].
    Class table (model [model/Total.v] of [Context::class] and [has_parent] in
    [src/check/context/clss/mod.rs], plain names only):
    - [C03_lookup_terminates], [C03_has_parent_terminates]  on an acyclic table the walk through
                             the parents ends within [length ctx] nested calls;
    - [C03_lookup_refuted], [C03_self_parent_diverges]  on [class A: A] the walk does not end,
                             whatever the fuel (finding D8, repaired).  The walk in /repo has no
                             guard of its own; [Context] construction refuses a class that is its
                             own ancestor ([check_inheritance_acyclic]), so [acyclic] is what holds
                             of every table the walk is run on.

    NOT covered by any theorem (exercised only by the robustness campaign of lib/vlib/c03.py,
    which is testing): the statement/expression parser ([src/parse/*.rs] outside [lex]), the
    constraint generator and the unifier ([src/check/constrain]), [Context] construction from
    the AST and the built-in stubs, generic arguments in class lookup, [convert]/the Python
    printer, the diagnostic renderer, the driver in [lib.rs]/[main.rs]; the real stack depth
    (a terminating recursion may still exhaust the 8 MiB stack: the model's bound is a number
    of nested calls, not bytes); wall-clock time (the step bound counts scanner calls, and
    each call may copy its tokens: finding D77); [i32]/[usize]
    overflow of line, column, indentation and brace counters (needs inputs of 2^31 characters;
    positions are [Z] in the model); inputs with non-ASCII characters (the model reads bytes,
    the Rust scanner reads [char]s). *)
From Coq Require Import List Ascii ZArith String Lia.
From MambaModel Require Import model.LexTok gen.LexTables model.Lex proofs.LexProps
  model.Total proofs.TotalProps.
Import ListNotations.

Theorem C03_lex_total : forall s, tokenize s <> OutOfFuel.
Proof. exact lex_total. Qed.

Theorem C03_lex_steps :
  forall s,
    fst (tok_loop_n (S (S (List.length s))) s state0 []) = tok_loop (S (S (List.length s))) s state0 []
    /\ lex_steps s <= List.length s * (1 + lex_depth s)
    /\ 2 * lex_depth s <= List.length s
    /\ 2 * lex_steps s <= List.length s * (2 + List.length s).
Proof.
  intros s. split; [apply loop_n_fst|]. split; [apply lex_steps_bound|].
  split; [apply lex_depth_bound | apply lex_steps_quadratic].
Qed.

Theorem C03_lex_no_panic :
  (* string scanner: shape of the state it runs in, from the opening quote on *)
  (forall s st rest, scan_string sstate0 s = (st, rest) -> SInv st)
  (* the slice [cur_expr[0..cur_expr.len() - 1]] *)
  /\ (forall st c cur, SInv st -> slice_site st c = Some cur ->
        c = c_rcb /\ cur = s_cur st ++ [c_rcb] /\ (0 < s_depth st)%Z)
  (* interpolated expressions are strictly shorter than what follows the opening quote *)
  /\ (forall c r content exprs rest, scan c r = SString content exprs rest ->
        List.length content + List.length rest <= List.length r
        /\ Forall (fun oe => List.length (snd oe) + 2 <= List.length content) exprs
        /\ exprs_len exprs <= List.length content)
  (* [as usize] casts that size [vec![..; amount]] *)
  /\ (forall st, if (cur_indent st <=? line_indent st)%Z
                 then (0 <= Z.quot (line_indent st - cur_indent st) 4)%Z
                 else (0 <= Z.quot (cur_indent st - line_indent st) 4)%Z)
  /\ (forall fuel s st acc, tok_loop fuel s state0 [] = inl (inl (st, acc)) ->
        (0 <= Z.quot (cur_indent st) 4)%Z)
  (* [CaretPos::offset] *)
  /\ (forall fuel s, offset_sites fuel s state0 = true).
Proof.
  split; [intros s st rest H; apply (scan_string_inv s sstate0 st rest SInv0 H)|].
  split; [exact slice_site_defined|].
  split; [exact scan_string_exprs_short|].
  split; [exact token_amounts_nonneg|].
  split; [exact flush_amount_nonneg|].
  intros fuel s. apply offset_sites_defined, st_ok0.
Qed.

Theorem C03_lookup_terminates :
  forall ctx, acyclic ctx -> forall n, lookup (List.length ctx) ctx n <> Diverges.
Proof. exact lookup_terminates. Qed.

Theorem C03_has_parent_terminates :
  forall ctx, acyclic ctx -> forall n other, has_parent (List.length ctx) ctx n other <> HDiverges.
Proof. exact has_parent_terminates. Qed.

Theorem C03_lookup_refuted :
  exists ctx n, ~ acyclic ctx /\ lookup (List.length ctx) ctx n = Diverges.
Proof. exists selfish, nameA. split; [exact selfish_cyclic | apply selfish_diverges]. Qed.

Theorem C03_self_parent_diverges : forall fuel, lookup fuel selfish nameA = Diverges.
Proof. exact selfish_diverges. Qed.

Theorem C03_partial :
  (forall s, tokenize s <> OutOfFuel)
  /\ (forall s, lex_steps s <= List.length s * (1 + lex_depth s) /\ 2 * lex_depth s <= List.length s)
  /\ (forall st c cur, SInv st -> slice_site st c = Some cur -> cur = s_cur st ++ [c_rcb])
  /\ (forall fuel s, offset_sites fuel s state0 = true)
  /\ (forall ctx, acyclic ctx ->
        forall n other, lookup (List.length ctx) ctx n <> Diverges
                        /\ has_parent (List.length ctx) ctx n other <> HDiverges)
  /\ (exists ctx n, ~ acyclic ctx /\ lookup (List.length ctx) ctx n = Diverges).
Proof.
  split; [exact lex_total|].
  split; [intros s; split; [apply lex_steps_bound | apply lex_depth_bound]|].
  split; [intros st c cur Hi Hs; apply (slice_site_defined st c cur Hi Hs)|].
  split; [intros fuel s; apply offset_sites_defined, st_ok0|].
  split; [intros ctx Hac n other; split; [apply lookup_terminates, Hac | apply C03_has_parent_terminates, Hac]|].
  exact C03_lookup_refuted.
Qed.

(** Non-vacuity: a string nested inside an interpolated expression nested inside a string *)
Definition nested_sample : str := s "def a := ""x{f(""y{b}"")}z"" + 1".
Example nested_sample_ok :
  (exists ts, tokenize nested_sample = LexOk ts /\ List.length ts = 12)
  /\ lex_depth nested_sample = 2 /\ lex_steps nested_sample = 16 /\ List.length nested_sample = 28.
Proof. split; [eexists; split; vm_compute; reflexivity | vm_compute; repeat split]. Qed.

(** the slice site is reached: closing the brace of ["{b}"] *)
Example slice_site_reached :
  exists st, SInv st /\ slice_site st c_rcb = Some (s "b}").
Proof.
  exists (sstep (sstep sstate0 c_lcb) (ch 98)).
  split; [apply SInv_step, SInv_step, SInv0 | reflexivity].
Qed.

(** an acyclic table with a diamond and an undefined parent; lookups end in [Found]/[Undefined] *)
Definition nm (x : string) : str := s x.
Definition diamond : list cls :=
  [ {| c_name := nm "D"; c_parents := [nm "B"; nm "C"]; c_members := [nm "d"] |};
    {| c_name := nm "B"; c_parents := [nm "A"]; c_members := [nm "b"; nm "m"] |};
    {| c_name := nm "C"; c_parents := [nm "A"]; c_members := [nm "c"; nm "m"] |};
    {| c_name := nm "A"; c_parents := []; c_members := [nm "a"] |};
    {| c_name := nm "E"; c_parents := [nm "Zz"]; c_members := [] |} ].

Definition diamond_rank (n : str) : nat :=
  if str_eqb n (nm "D") then 3 else if str_eqb n (nm "B") then 2 else if str_eqb n (nm "C") then 2
  else if str_eqb n (nm "E") then 1 else 0.

Example diamond_acyclic : acyclic diamond.
Proof.
  apply (ranked_acyclic diamond diamond_rank).
  intros n p (c & Hf & Hin). apply find_class_some in Hf as [Hc <-].
  repeat (destruct Hc as [<- | Hc]; [cbn in Hin; repeat (destruct Hin as [<- | Hin]; [vm_compute; lia|]); destruct Hin|]).
  destruct Hc.
Qed.

Example diamond_lookup :
  lookup (List.length diamond) diamond (nm "D") = Found [nm "d"; nm "b"; nm "m"; nm "a"; nm "c"]
  /\ lookup (List.length diamond) diamond (nm "E") = Undefined (nm "Zz")
  /\ has_parent (List.length diamond) diamond (nm "D") (nm "A") = HBool true
  /\ has_parent (List.length diamond) diamond (nm "A") (nm "D") = HBool false.
Proof. vm_compute. repeat split. Qed.

Check C03_lex_total : forall s, tokenize s <> OutOfFuel.
Check C03_lex_steps : forall s,
    fst (tok_loop_n (S (S (List.length s))) s state0 []) = tok_loop (S (S (List.length s))) s state0 []
    /\ lex_steps s <= List.length s * (1 + lex_depth s)
    /\ 2 * lex_depth s <= List.length s
    /\ 2 * lex_steps s <= List.length s * (2 + List.length s).
Check C03_lookup_terminates :
  forall ctx, acyclic ctx -> forall n, lookup (List.length ctx) ctx n <> Diverges.
Check C03_has_parent_terminates :
  forall ctx, acyclic ctx -> forall n other, has_parent (List.length ctx) ctx n other <> HDiverges.
Check C03_lookup_refuted : exists ctx n, ~ acyclic ctx /\ lookup (List.length ctx) ctx n = Diverges.
Check C03_self_parent_diverges : forall fuel, lookup fuel selfish nameA = Diverges.
Check C03_partial :
  (forall s, tokenize s <> OutOfFuel)
  /\ (forall s, lex_steps s <= List.length s * (1 + lex_depth s) /\ 2 * lex_depth s <= List.length s)
  /\ (forall st c cur, SInv st -> slice_site st c = Some cur -> cur = s_cur st ++ [c_rcb])
  /\ (forall fuel s, offset_sites fuel s state0 = true)
  /\ (forall ctx, acyclic ctx ->
        forall n other, lookup (List.length ctx) ctx n <> Diverges
                        /\ has_parent (List.length ctx) ctx n other <> HDiverges)
  /\ (exists ctx n, ~ acyclic ctx /\ lookup (List.length ctx) ctx n = Diverges).
Print Assumptions C03_lex_total.
Print Assumptions C03_lex_steps.
Print Assumptions C03_lex_no_panic.
Print Assumptions C03_lookup_terminates.
Print Assumptions C03_has_parent_terminates.
Print Assumptions C03_lookup_refuted.
Print Assumptions C03_self_parent_diverges.
Print Assumptions C03_partial.
