(** * C09 - definite assignment

    Model: model/Scope.v, the environment threading of the constraint generator ([check_program T
    restored] is the code as it is).  [ssruns T false [] p t o]: t is the event trace of one execution
    path of the skeleton program p.  The scope stack replayed over a trace ([all_events]) gives the
    lexically visible definition of a name at every event. *)
From Coq Require Import List Bool Arith.
Import ListNotations.
From MambaModel Require Import model.Scope proofs.ScopeProps proofs.ScopeWitness proofs.ScopeLex.

(** Soundness for variables, every program: on every path every read of a variable sees a visible
    definition, hence is preceded on that path by a Define of that name. *)
Theorem C09_sound_vars :
  forall T strict p e g t o,
    check_program T strict p = Ok (e, g) -> ssruns T false [] p t o ->
    all_events read_ok [[]] [] t /\ preceded [] t.
Proof. exact ScopeProps.C09_sound_vars. Qed.

(** The full statement (function names included) is false of the code: a top-level call placed
    before the `def` of its function is accepted [D12]. *)
Theorem C09_sound_refuted :
  exists T p e g t o,
    check_program T restored p = Ok (e, g) /\ ssruns T false [] p t o /\
    ~ all_events fread_ok [[]] [] t.
Proof. exact ScopeWitness.C09_sound_refuted. Qed.

(** Outside that class (every top-level call comes after the definition of its function in the
    same or an enclosing block) the full statement holds. *)
Theorem C09_sound_outside_known :
  forall T strict p e g t o,
    ord_stmts [] p = true ->
    check_program T strict p = Ok (e, g) -> ssruns T false [] p t o ->
    all_events read_ok [[]] [] t /\ preceded [] t /\ all_events fread_ok [[]] [] t.
Proof. exact ScopeWitness.C09_sound_outside_known. Qed.

(** Completeness, lexical form: a defined name can be read; a definition makes exactly its names
    visible with its own mutability (shadowing gives the newest definition); a visible name stays
    visible across every later statement of the block, whatever that statement contains. *)
Theorem C09_read_defined_ok :
  forall T strict e g x, WF e -> lookup e x <> None -> check_expr T strict e g (ERead x) = None.
Proof. exact ScopeWitness.read_defined_ok. Qed.

Theorem C09_definition_visible :
  forall T strict e g m p init e1 g1 x,
    check_simple T strict e g (XDef m p init) = Ok (e1, g1) ->
    lookup e1 x = if mem x p then Some m else lookup e x.
Proof. exact ScopeWitness.definition_visible. Qed.

Theorem C09_visible_preserved :
  forall T,
  (forall s strict e g e' g' x, check_stmt T strict e g s = Ok (e', g') ->
     lookup e x <> None -> lookup e' x <> None) /\
  (forall ss strict e g e' g' x, check_stmts T strict e g ss = Ok (e', g') ->
     lookup e x <> None -> lookup e' x <> None).
Proof. exact ScopeWitness.visible_preserved. Qed.

(** Completeness, lexical form, for whole programs.  [lx_stmts] (proofs/ScopeLex.v) is plain lexical
    scoping on a stack of frames: a use is fine iff a definition of the name comes earlier in the same
    or an enclosing block (newest first; function bodies see the definition point and the parameters;
    binders and loop variables live in their construct).  Every accepted program is lexically fine, and
    a program is rejected as "undefined" ONLY IF the reference finds an undefined use: a read or write
    preceded by a definition in the same or an enclosing block is never the reason of such a rejection. *)
Theorem C09_complete_lexical :
  forall T md p,
    match check_program T md p with
    | Ok _ => isok (lx_stmts [[]] p) = true
    | Rej KUndef => lx_stmts [[]] p = None
    | Rej _ => True
    end.
Proof. exact ScopeLex.lexical_agreement. Qed.

(** Completeness, path form ("defined on all paths"): false of the code.  Both branches of an if
    define the name, every path defines it before the read, the program is rejected [D13]. *)
Theorem C09_complete_paths_refuted :
  exists T p,
    (forall t o, ssruns T false [] p t o -> preceded [] t) /\
    check_program T restored p = Rej KUndef.
Proof. exact ScopeWitness.C09_complete_paths_refuted. Qed.

(** the environment lookup used above is what the code's [get_var] computes, given [WF] *)
Theorem C09_lookup_is_get_var :
  forall e g x, WF e -> get_var e g x = lookup e x.
Proof. exact ScopeProps.get_var_lookup. Qed.

(** non-vacuity; [verdict_program] is the rule set before the repair, [C08_example] has the code as it is *)
Example C09_example :
  verdict_program ct1 [] [] p_example = VAccept /\ ord_stmts [] p_example = true.
Proof. split; vm_compute; reflexivity. Qed.

Check C09_sound_vars :
  forall T strict p e g t o,
    check_program T strict p = Ok (e, g) -> ssruns T false [] p t o ->
    all_events read_ok [[]] [] t /\ preceded [] t.
Check C09_sound_refuted :
  exists T p e g t o,
    check_program T restored p = Ok (e, g) /\ ssruns T false [] p t o /\ ~ all_events fread_ok [[]] [] t.
Check C09_sound_outside_known :
  forall T strict p e g t o,
    ord_stmts [] p = true ->
    check_program T strict p = Ok (e, g) -> ssruns T false [] p t o ->
    all_events read_ok [[]] [] t /\ preceded [] t /\ all_events fread_ok [[]] [] t.
Check C09_complete_lexical :
  forall T md p,
    match check_program T md p with
    | Ok _ => isok (lx_stmts [[]] p) = true
    | Rej KUndef => lx_stmts [[]] p = None
    | Rej _ => True
    end.
Check C09_complete_paths_refuted :
  exists T p,
    (forall t o, ssruns T false [] p t o -> preceded [] t) /\ check_program T restored p = Rej KUndef.
Print Assumptions C09_sound_vars.
Print Assumptions C09_sound_refuted.
Print Assumptions C09_sound_outside_known.
Print Assumptions C09_read_defined_ok.
Print Assumptions C09_definition_visible.
Print Assumptions C09_visible_preserved.
Print Assumptions C09_complete_paths_refuted.
Print Assumptions C09_complete_lexical.
Print Assumptions C09_lookup_is_get_var.
