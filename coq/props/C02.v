(** * C02 - every emitted file is syntactically valid Python 3 (layout level)

    Over the statement-level model of the printer (model/PyStmt.v, tied to [to_py] by
    tokenising the implementation's own output with python3 on every case):

    - [C02_layout]: for EVERY Core statement tree [c] whose suites are not empty and whose
      decorated functions sit at class level ([wfl]), the logical lines printed for [c] obey
      Python's indentation rules: a deeper line only after a header ending in a colon, every
      header followed by a deeper line, every dedent returning to an open level - from any
      state that is ready for a statement at that level, leaving one that is ready for the
      next statement.  [C02_module_layout] is the instance for a whole module.
    - [C02_lines_nonempty]: the tokens of an expression never end in a colon (so an expression
      statement is not taken for a header; the same holds of the other one-line statements inside
      the proof of [C02_layout]).
    The expressions inside the lines are covered by C10 ([C10_roundtrip]): the statement
    printer prints them through the same regenerated table.

    This is partial with respect to the property: the grammar of the individual
    statement forms (e.g. a [try] needs at least one [except]), the lexical classes of literals
    and names, and the well-formedness of the trees that [convert] produces ([wfl] of the
    converted program) are NOT proved; they are decided by the direct oracle (python3
    [compile]) on every output.  Refuted part: a decorated function at nesting depth 2
    ([C02_decorator_refuted]). *)
From Coq Require Import List String Arith.
From MambaModel Require Import model.PyExpr model.CoreExpr gen.PrinterTable model.Core model.PyStmt
  proofs.PyStmtProps.
Import ListNotations.

Theorem C02_layout :
  forall c ind ls, plines c ind = Some ls -> wfl c ind = true -> ls = [] \/ Good ls (4 * ind).
Proof. exact plines_layout. Qed.

Theorem C02_module_layout :
  forall c ls, plines c 0 = Some ls -> wfl c 0 = true -> module_layout_ok ls = true.
Proof. exact module_layout. Qed.

Theorem C02_lines_nonempty :
  forall c ts, etoks c = Some ts -> ends_colon ts = false.
Proof. intros c ts H. apply slast_ends, (etoks_last c ts H). Qed.

(** Non-vacuity: a function with an if/else, a loop and a try/except is well formed and its
    lines are accepted. *)
Local Open Scope string_scope.
Definition sample : core :=
  Block [ FunDef [] "f" [FunArg false (Id "x") (Some (Type_ "int" [])) None] (Some (Type_ "int" []))
            (Block [ IfElse (Bin CbLe (Id "x") (Int "1")) (Block [Un CuReturn (Int "1")])
                            (Block [ For (Id "i") (FunctionCall (Id "range") [Int "0"; Id "x"; Int "1"])
                                         (Block [Assign (Id "x") (Id "i") OpAddAssign]);
                                     Un CuReturn (Id "x") ]) ]);
          TryExcept None (Block [FunctionCall (Id "print") [FunctionCall (Id "f") [Int "3"]]])
                    [Except (Type_ "Exception" []) (Block [Pass])] ].
Example sample_ok :
  exists ls, plines sample 0 = Some ls /\ wfl sample 0 = true /\ module_layout_ok ls = true /\ List.length ls = 11.
Proof. eexists. split; [vm_compute; reflexivity|]. split; [vm_compute; reflexivity|]. split; vm_compute; reflexivity. Qed.

(** an empty body (comment-only suite in the source) is printed as [pass] (D6) *)
Example C02_empty_suite_pass :
  exists ls, plines (Block [If (Bool true) (Block []); Pass]) 0 = Some ls /\ module_layout_ok ls = true
             /\ wfl (Block [If (Bool true) (Block []); Pass]) 0 = true.
Proof. eexists. split; [vm_compute; reflexivity|]. split; vm_compute; reflexivity. Qed.

(** without [wfl] the statement fails: a decorated method two classes deep *)
Theorem C02_decorator_refuted :
  exists c ls, plines c 0 = Some ls /\ module_layout_ok ls = false.
Proof.
  exists (ClassDef (Id "A") [] (Block [ClassDef (Id "B") [] (Block [FunDef ["abstractmethod"] "f" [Id "self"] None Pass])])).
  eexists. split; vm_compute; reflexivity.
Qed.

Check C02_layout :
  forall c ind ls, plines c ind = Some ls -> wfl c ind = true -> ls = [] \/ Good ls (4 * ind).
Check C02_module_layout :
  forall c ls, plines c 0 = Some ls -> wfl c 0 = true -> module_layout_ok ls = true.
Print Assumptions C02_layout.
Print Assumptions C02_module_layout.
Print Assumptions C02_lines_nonempty.
