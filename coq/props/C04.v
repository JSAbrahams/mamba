(** * C04 - accepted programs do not go wrong (first stage: the signature table; see [C04_partial] for what is missing)

    [stubs_sound tbl]: for every row of a core class (Int, Float, Complex, Str, Bool, None) whose method the model
    of Python's operators (model/PyOps.v, validated against python3 on every run) covers, and for every receiver /
    argument run-time tags the declared parameter types admit, Python performs the operation (no TypeError, no
    AttributeError) and every tag the result can carry is admitted by the declared return type.  The table is the one
    regenerated from src/check/resource/**/*.py by translate/stub_sigs.py, so the statement is re-proved (by
    evaluation) whenever a stub changes.
      [C04_stubs_sound_outside_known]   holds for all rows but the five of [known_row]
      [C04_stubs_sound_refuted]         while one of the five is in the table with a signature that is not sound
                                        ([known_unsound_present], decided on the regenerated table), the table is not
                                        sound; [C04_unsound_row_refutes] is the same for any unsound row
      [C04_tag_witnesses]               what Python does on the five, independent of the table: ["a" + 1] is a
                                        TypeError (D9), [2 ^ -1] is a float, [(-8.0) ^ 0.5] is a complex, [-c] of a
                                        Complex is a complex, python's str has no [is_digit]
      [C04_partial] [C04_partial_any_tables] [C04_partial_refuted] [C04_partial_example]   see below
    Full soundness (no accepted program raises TypeError / AttributeError / NameError / UnboundLocalError) is FALSE of
    the faithful model beyond the table as well: props/C05.v [C05_witnesses] are accepted programs that go wrong
    (field of None, [x ? None], T? range bound, missing return, handle arm of another type, unchecked parent
    constructor argument); lib/vlib/c04.py runs the emitted Python of every accepted program and mutant. *)
From Coq Require Import List String Bool ZArith.
From MambaModel Require Import model.Types model.TypingSig gen.Stubs gen.StubSigs model.PyOps model.Typing model.TagSem
  proofs.StubsSound proofs.TagSound.
Import ListNotations.
Local Open Scope string_scope.

Theorem C04_stubs_sound_outside_known : stubs_sound (filter (fun r => negb (known_row r)) stub_sigs) = true.
Proof. exact sound_outside_known. Qed.

Theorem C04_stubs_sound_refuted : forall tbl, known_unsound_present tbl = true -> stubs_sound tbl = false.
Proof. exact refuted_when_present. Qed.

Theorem C04_unsound_row_refutes : forall tbl r,
  In r tbl -> core_row r = true -> row_sound r = false -> stubs_sound tbl = false.
Proof. exact unsound_row_refutes. Qed.

Theorem C04_tag_witnesses :
  py_call "Str" "__add__" GStr [GInt] = None /\
  py_call "Int" "__pow__" GInt [GInt] = Some [GInt; GFloat] /\
  py_call "Float" "__pow__" GFloat [GFloat] = Some [GFloat; GComplex] /\
  py_call "Complex" "__neg__" GComplex [] = Some [GComplex] /\
  py_call "Str" "is_digit" GStr [] = None.
Proof.
  exact (conj str_plus_int_is_a_type_error (conj int_pow_int_may_be_float (conj float_pow_float_may_be_complex
        (conj neg_complex_is_complex str_has_no_is_digit)))).
Qed.

(** ** C04_partial: progress and preservation, on tags, for the core expressions

    For the regenerated class table and the regenerated signature table without the rows of [known_row]: a typable core
    expression ([core_e]: literals, variables, binary operators, not / and / or, [x ? d], if-expressions, f-strings, at any
    nesting) evaluated by model/TagSem.v in an environment whose variables carry tags admitted by their (core) types has
    no outcome that goes wrong, and every outcome carries a tag the synthesised type admits.
    MISSING for the full property: function / method / constructor calls and field accesses (no objects, no bodies:
    the semantics has no statements, no store, no fuel), user classes, definite assignment (NameError through a
    variable that is not yet assigned on some path, UnboundLocalError), the statement level of model/Typing.v.
    [C04_partial_any_tables]: no outcome goes wrong, for any tables that pass [tables_ok].  [C04_partial_refuted]: of the whole
    regenerated table the statement is false as long as its row Str.__add__ admits an Int operand ([d9_typable]). *)
Theorem C04_partial : forall funs fields e d rho t,
  core_e e = true -> core_denv d -> env_tags rho d ->
  has_type generated sound_rows funs fields d e t ->
  In t core_tys /\ (forall o, In o (aeval rho e) -> exists g, o = Some g /\ In g (tags_of_ty t)).
Proof. intros funs fields. exact (tag_sound generated sound_rows funs fields tables_ok_outside_known). Qed.

Theorem C04_partial_any_tables : forall cx sigs funs fields, tables_ok cx sigs = true -> forall e d rho t,
  core_e e = true -> core_denv d -> env_tags rho d -> has_type cx sigs funs fields d e t ->
  ~ In None (aeval rho e).
Proof. intros cx sigs funs fields H e d rho t. exact (no_wrong cx sigs funs fields H e d rho t). Qed.

Theorem C04_partial_refuted :
  d9_typable = true ->
  exists t, has_type generated stub_sigs [] [] [] d9_expr t /\ core_e d9_expr = true /\ In None (aeval [] d9_expr).
Proof. exact typable_goes_wrong. Qed.

(** the hypotheses of [C04_partial] are satisfiable by a non-trivial case *)
Example C04_partial_example :
  let d := [("x", {| d_ty := opt tInt; d_mut := false |}); ("y", {| d_ty := tFloat; d_mut := false |})] in
  let e := EIf (EOp "__lt__" (EVar "y") (EInt 2%Z)) (EOp "__mul__" (EQuest (EVar "x") (EInt 3%Z)) (EInt 2%Z)) (EInt 0%Z) in
  core_e e = true /\ core_denv d /\ env_tags [("x", GNone); ("y", GInt)] d /\
  (exists t, has_type generated sound_rows [] [] d e t) /\ aeval [("x", GNone); ("y", GInt)] e = [Some GInt; Some GInt].
Proof. exact partial_example. Qed.

Check C04_partial : forall funs fields e d rho t,
  core_e e = true -> core_denv d -> env_tags rho d ->
  has_type generated sound_rows funs fields d e t ->
  In t core_tys /\ (forall o, In o (aeval rho e) -> exists g, o = Some g /\ In g (tags_of_ty t)).
Check C04_stubs_sound_outside_known : stubs_sound (filter (fun r => negb (known_row r)) stub_sigs) = true.
Check C04_stubs_sound_refuted : forall tbl, known_unsound_present tbl = true -> stubs_sound tbl = false.
Print Assumptions C04_stubs_sound_outside_known.
Print Assumptions C04_stubs_sound_refuted.
Print Assumptions C04_tag_witnesses.
Print Assumptions C04_partial.
Print Assumptions C04_partial_any_tables.
Print Assumptions C04_partial_refuted.
