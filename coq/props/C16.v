(** * C16 - emitted modules are self-contained: generator-used names are imported once

    Over the model [Convert.conv] / [Convert.gen] of the desugaring and of [gen_arguments]
    (classes, interfaces and type aliases included), for EVERY typed AST, both values of the
    annotate flag:
    - [C16_monotone]       from a record that keeps [typing] apart ([typing_sep], true of [imports0] and
                           kept by [conv]) the import record only grows while a tree is converted;
                           without it: [C16_monotone_refuted_without_sep];
    - [C16_covers]         everything the converted tree needs ([needs]: math for sqrt, the typing
                           spellings of rendered types, NewType for a type alias, ABC as the parent
                           of an interface, abstractmethod as a decorator) is provided by the
                           resulting record - provided the user's own type names avoid the spellings
                           rendered without import ([reserved_free]: no type named Optional or Union,
                           no called type / parent-with-arguments rendered ABC, [C16_reserved_spellings]);
                           the hypothesis is necessary ([C16_covers_refuted], [C16_covers_refuted_parent]);
    - [C16_imports_once]   no plain import, no from-module and no imported name is registered twice,
                           and the statements of the import list are pairwise different;
    - [C16_module_layout]  the emitted module is the import list followed by the converted body;
    - [C16_user_imports_verbatim]  a user import is converted to the [Import] of its identifiers,
                           each passed through the type-name table - unchanged when it is not a key of
                           that table ([C16_user_imports_unchanged]; a key can change:
                           [C16_user_imports_renamed_refuted], `Enum` becomes `enum`);
    - [C16_self_contained] the combination for [gen]: every need of the body is bound by exactly
                           one statement of the import list that precedes the body.
    What the theorems do not say: that a user definition cannot rebind an imported support name
    (it can: [C16_d20_capture], finding D20) - free-name capture is judged by the direct oracle. *)
From Coq Require Import List String.
From MambaModel Require Import model.Core gen.Names model.Convert proofs.ConvertSim
  proofs.ImportsProps proofs.ImportsNeeds proofs.ImportsConv proofs.ImportsMain.
Import ListNotations.
Local Open Scope string_scope.
Local Open Scope list_scope.

Theorem C16_monotone :
  forall a st i c j n,
    typing_sep i -> provides i n -> conv a st i = Some (c, j) -> provides j n.
Proof. intros a st i c j n Hs Hp E. apply (conv_ile a st i c j E); assumption. Qed.

Theorem C16_monotone_refuted_without_sep :
  exists a st i c j n, provides i n /\ conv a st i = Some (c, j) /\ ~ provides j n.
Proof.
  exists (A None (NTypeAlias "T" [] (NM [TN false "Int" []]))), (state0 false), odd_imports.
  eexists. eexists. exists (FromImport "typing" "Any").
  split; [exists [Id "Any"], []; split; left; reflexivity|].
  split; [vm_compute; reflexivity|].
  intros (ns & al & Hin & Hx). vm_compute in Hin. destruct Hin as [E|[]]. inversion E; subst.
  destruct Hx as [E'|[]]. discriminate E'.
Qed.

Theorem C16_covers :
  forall a st i c j,
    reserved_free a = true -> typing_sep i -> target_covered st i ->
    conv a st i = Some (c, j) -> forall n, In n (needs c) -> provides j n.
Proof. intros a st i c j Hrf Hs Ht E. exact (proj1 (conv_covers_head a st i c j Hrf Hs Ht E)). Qed.

Theorem C16_reserved_spellings :
  forall s, (type_name_ok s = true <-> s <> "Optional" /\ s <> "Union") /\ (abc_ok s = true <-> s <> "ABC").
Proof. intros s. split; [apply type_name_ok_spec | apply abc_ok_spec]. Qed.

Theorem C16_covers_refuted :
  exists a st i c j n,
    typing_sep i /\ target_covered st i /\ conv a st i = Some (c, j) /\ In n (needs c) /\ ~ provides j n.
Proof.
  exists user_optional, (state0 true), imports0, (FunctionCall (Type_ "Optional" []) []), imports0,
    (FromImport "typing" "Optional").
  split; [intros []|]. split; [exact I|]. split; [vm_compute; reflexivity|]. split; [left; reflexivity|].
  intros (ns & al & [] & _).
Qed.

Theorem C16_covers_refuted_parent :
  exists c j n,
    conv user_abc_parent (state0 true) imports0 = Some (c, j) /\ In n (needs c) /\ ~ provides j n.
Proof.
  eexists. exists imports0, (FromImport "abc" "ABC").
  split; [vm_compute; reflexivity|]. split; [left; reflexivity|]. intros (ns & al & [] & _).
Qed.

Theorem C16_imports_once :
  forall a st i c j, wf i -> conv a st i = Some (c, j) -> once j.
Proof. intros a st i c j Hw E. apply wf_once. eapply conv_wf; eassumption. Qed.

Theorem C16_module_layout :
  forall ann a sts,
    gen ann a = Some (Block sts) ->
    exists c j, conv a (state0 ann) imports0 = Some (c, j) /\ sts = import_list j ++ stmts_of c.
Proof. exact module_layout. Qed.

(** a module that is not a block has registered no import *)
Theorem C16_module_single :
  forall ann a c,
    gen ann a = Some c -> (forall sts, c <> Block sts) ->
    exists j, conv a (state0 ann) imports0 = Some (c, j) /\ import_list j = [].
Proof.
  intros ann a c. rewrite gen_is_module. destruct (conv a (state0 ann) imports0) as [[c0 j]|]; [|discriminate].
  intros H Hnb. exists j.
  assert (He : imports_empty j = true -> import_list j = []).
  { unfold imports_empty, import_list. destruct (imps j); [|discriminate]. destruct (from_imps j); [reflexivity | discriminate]. }
  revert H.
  destruct c0; (destruct (imports_empty j) eqn:Ee; intros H; inversion H; subst;
                first [ (exfalso; eapply Hnb; reflexivity) | (split; [reflexivity | apply He; reflexivity]) ]).
Qed.

Theorem C16_user_imports_verbatim :
  forall ty f im al st i,
    assign_to st = None -> last_ret st = false ->
    conv (A ty (NImport (option_map idn f) (map idn im) (map idn al))) st i
    = Some (Import (option_map pid f) (map pid im) (map pid al), i).
Proof. exact user_imports_verbatim. Qed.

Theorem C16_user_imports_unchanged :
  forall x, lookup (snd x) py_names = None -> pid x = Id (snd x).
Proof. intros x. unfold pid, concrete_to_python. intros ->. reflexivity. Qed.

Theorem C16_user_imports_renamed_refuted : exists x, pid x <> Id (snd x).
Proof. exists (None, "Enum"). vm_compute. discriminate. Qed.

Theorem C16_self_contained :
  forall ann a sts,
    gen ann a = Some (Block sts) ->
    exists c j body,
      conv a (state0 ann) imports0 = Some (c, j) /\
      sts = import_list j ++ body /\ body = stmts_of c /\
      once j /\
      (reserved_free a = true ->
         forall n, In n (flat_map needs body) ->
           exists s, In s (import_list j) /\ stmt_binds s n /\
                     forall s', In s' (import_list j) -> stmt_binds s' n -> s' = s).
Proof.
  intros ann a sts H. destruct (module_layout ann a sts H) as (c & j & E & ->).
  exists c, j, (stmts_of c). split; [exact E|]. split; [reflexivity|]. split; [reflexivity|].
  assert (Hw : wf j) by (eapply conv_wf; [apply wf0 | exact E]).
  split; [apply wf_once; exact Hw|].
  intros Hrf n Hn.
  assert (Hn' : In n (needs c)).
  { destruct c; cbn [stmts_of flat_map] in Hn; try (rewrite app_nil_r in Hn; exact Hn). exact Hn. }
  assert (Hs0 : typing_sep imports0) by (intros []).
  pose proof (C16_covers a (state0 ann) imports0 c j Hrf Hs0 I E n Hn') as Hp.
  destruct (provides_stmt j n Hw Hp) as (s & Hs & Hb). exists s. split; [exact Hs|]. split; [exact Hb|].
  intros s' Hs' Hb'. eapply binds_unique; eassumption.
Qed.

(** Non-vacuity: a program with a type alias, an interface and a function whose signature mentions a
    nullable, a tuple with a nullable member, a callable, Any and a union, and whose body takes a
    square root; it is reserved-free and converts under both settings, to modules that start with
    the imports shown and whose bodies need what is listed. *)
Example C16_sample_free : reserved_free sample16 = true.
Proof. exact sample16_reserved_free. Qed.
Example C16_sample_annotated :
  exists body,
    gen true sample16 =
    Some (Block ([Import None [Id "math"] [];
                  Import (Some (Id "abc")) [Id "ABC"; Id "abstractmethod"] [];
                  Import (Some (Id "typing"))
                    [Id "Any"; Id "Callable"; Id "NewType"; Id "Optional"; Id "Tuple"; Id "Union"] []] ++ body))
    /\ flat_map needs body =
       [FromImport "typing" "NewType"; FromImport "abc" "ABC"; FromImport "abc" "abstractmethod";
        FromImport "typing" "Optional"; FromImport "typing" "Tuple"; FromImport "typing" "Optional";
        FromImport "typing" "Callable"; FromImport "typing" "Tuple"; FromImport "typing" "Any";
        FromImport "typing" "Union"; PlainImport "math"].
Proof. exact sample16_gen_annotated. Qed.
Example C16_sample_plain :
  exists body,
    gen false sample16 =
    Some (Block ([Import None [Id "math"] [];
                  Import (Some (Id "abc")) [Id "ABC"; Id "abstractmethod"] [];
                  Import (Some (Id "typing")) [Id "NewType"] []] ++ body))
    /\ flat_map needs body =
       [FromImport "typing" "NewType"; FromImport "abc" "ABC"; FromImport "abc" "abstractmethod"; PlainImport "math"].
Proof. exact sample16_gen_plain. Qed.

(** D20: the theorems are about the import list; a user definition can still rebind an imported name *)
Example C16_d20_capture :
  gen false d20 = Some (Block [Import None [Id "math"] [];
                               VarDef (Id "math") None (Some (Int "3"));
                               Un CuSqrt (Int "4")])
  /\ reserved_free d20 = true.
Proof. exact d20_capture. Qed.

(* each [Check] pins the statement of the theorem it names *)
Check C16_monotone :
  forall a st i c j n, typing_sep i -> provides i n -> conv a st i = Some (c, j) -> provides j n.
Check C16_covers :
  forall a st i c j,
    reserved_free a = true -> typing_sep i -> target_covered st i ->
    conv a st i = Some (c, j) -> forall n, In n (needs c) -> provides j n.
Check C16_imports_once : forall a st i c j, wf i -> conv a st i = Some (c, j) -> once j.
Check C16_module_layout :
  forall ann a sts,
    gen ann a = Some (Block sts) ->
    exists c j, conv a (state0 ann) imports0 = Some (c, j) /\ sts = import_list j ++ stmts_of c.
Check C16_self_contained :
  forall ann a sts,
    gen ann a = Some (Block sts) ->
    exists c j body,
      conv a (state0 ann) imports0 = Some (c, j) /\
      sts = import_list j ++ body /\ body = stmts_of c /\
      once j /\
      (reserved_free a = true ->
         forall n, In n (flat_map needs body) ->
           exists s, In s (import_list j) /\ stmt_binds s n /\
                     forall s', In s' (import_list j) -> stmt_binds s' n -> s' = s).
Print Assumptions C16_monotone.
Print Assumptions C16_covers.
Print Assumptions C16_imports_once.
Print Assumptions C16_module_layout.
Print Assumptions C16_user_imports_verbatim.
Print Assumptions C16_self_contained.
Print Assumptions C16_covers_refuted.
Print Assumptions C16_reserved_spellings.
