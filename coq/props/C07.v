(** * C07 - immutability

    Model: model/Scope.v.  A Write event is judged against the scope stack replayed over the trace:
    the visible definition of the name must exist and be mutable. *)
From Coq Require Import List Bool Arith.
Import ListNotations.
From MambaModel Require Import model.Scope proofs.ScopeProps proofs.ScopeWitness.

(** Soundness for variables and receivers, every program: no write (plain, tuple, compound) to a
    name whose visible definition is fin, none to an undefined name, and a field is only assigned
    through a visible mutable receiver. *)
Theorem C07_sound_vars :
  forall T strict p e g t o,
    check_program T strict p = Ok (e, g) -> ssruns T false [] p t o ->
    all_events write_ok [[]] [] t /\ all_events recv_ok [[]] [] t.
Proof. exact ScopeProps.C07_sound_vars. Qed.

(** The full statement (fin fields included) is false of the code: the mutability of a field is
    recorded in the Context and never consulted [D11]. *)
Theorem C07_sound_refuted :
  exists T p e g t o,
    check_program T restored p = Ok (e, g) /\ ssruns T false [] p t o /\
    ~ all_events (fldwrite_ok (t_fld T)) [[]] [] t.
Proof. exact ScopeWitness.C07_sound_refuted. Qed.

(** Outside that class (no assignment to a field declared fin) the full statement holds. *)
Theorem C07_sound_outside_known :
  forall T strict p e g t o,
    nf_stmts (t_fld T) p = true ->
    check_program T strict p = Ok (e, g) -> ssruns T false [] p t o ->
    all_events write_ok [[]] [] t /\ all_events (fldwrite_ok (t_fld T)) [[]] [] t.
Proof. exact ScopeWitness.C07_sound_outside_known. Qed.

(** [shadowing_sound]: the `name@offset` map implements lexical shadowing.  After inserting x the
    lookup of x gives the new mutability whatever the builder's global mapping is, every other name
    is untouched; this holds in any environment that satisfies [WF] ([env0] does, [insert_var] keeps
    it), in particular in the branch-local copies. *)
Theorem C07_shadowing_sound :
  forall e g m x,
    WF e ->
    let e' := fst (define m (e, g) x) in
    WF e' /\
    get_var e' (snd (define m (e, g) x)) x = Some m /\
    (forall g', get_var e' g' x = Some m) /\
    (forall y g', y <> x -> get_var e' g' y = lookup e y).
Proof. exact ScopeProps.shadowing_sound. Qed.

(** Positive half. *)
Theorem C07_mutable_reassign_ok :
  forall T strict e g x rhs,
    WF e -> lookup e x = Some true -> check_expr T strict e g rhs = None ->
    check_simple T strict e g (XAssign [x] rhs) = Ok (e, g) /\
    check_simple T strict e g (XAug x rhs) = Ok (e, g).
Proof. exact ScopeWitness.mutable_reassign_ok. Qed.

Theorem C07_fin_or_undefined_reassign_rejected :
  forall T strict e g x rhs,
    WF e -> e_in_class e = false ->
    (lookup e x = Some false -> check_simple T strict e g (XAssign [x] rhs) = Rej KImmut /\
                                check_simple T strict e g (XAug x rhs) = Rej KImmut) /\
    (lookup e x = None -> check_simple T strict e g (XAssign [x] rhs) = Rej KUndef /\
                          check_simple T strict e g (XAug x rhs) = Rej KUndef).
Proof. exact ScopeWitness.fin_or_undefined_reassign_rejected. Qed.

Example C07_example :
  verdict_program ct1 [] [] p_example = VAccept /\ nf_stmts [] p_example = true.
Proof. split; vm_compute; reflexivity. Qed.

Check C07_sound_vars :
  forall T strict p e g t o,
    check_program T strict p = Ok (e, g) -> ssruns T false [] p t o ->
    all_events write_ok [[]] [] t /\ all_events recv_ok [[]] [] t.
Check C07_sound_refuted :
  exists T p e g t o,
    check_program T restored p = Ok (e, g) /\ ssruns T false [] p t o /\
    ~ all_events (fldwrite_ok (t_fld T)) [[]] [] t.
Check C07_sound_outside_known :
  forall T strict p e g t o,
    nf_stmts (t_fld T) p = true ->
    check_program T strict p = Ok (e, g) -> ssruns T false [] p t o ->
    all_events write_ok [[]] [] t /\ all_events (fldwrite_ok (t_fld T)) [[]] [] t.
Print Assumptions C07_sound_vars.
Print Assumptions C07_sound_refuted.
Print Assumptions C07_sound_outside_known.
Print Assumptions C07_shadowing_sound.
Print Assumptions C07_mutable_reassign_ok.
Print Assumptions C07_fin_or_undefined_reassign_rejected.
