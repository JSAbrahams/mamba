(** * C05 - declared signatures are enforced, both directions

    [p] ranges over ALL programs of the mini-language of model/Typing.v: classes (optionally with a parent) with typed
    fields and methods, functions with annotated parameters / defaults / return types, nullable types, operators
    through the dunder signatures of the regenerated stub table, calls, method calls, constructor calls, field access
    and assignment, [x ? d], if-expressions, f-strings, definitions (annotated or inferred), reassignment, print,
    if / while / for / match / handle, return, raise.

    [conforms] is the declarative relation (one rule per construct; subtyping is [Types.super], the relation proved
    a sound order in props/C20.v); [check q] is the model of the checker: a traversal that emits one obligation
    [expected >= actual] per typed use, discharged under the quirks [q].
      [C05_check_iff]            the repaired checker ([noq]) accepts exactly the conforming programs;
                                 [C05_check_iff_any_tables]: for any class and signature tables
      [C05_outside_known]        so does the implementation's rule set, on every program none of whose obligations falls
                                 into a known class; [C05_known_classes] says what the classes are
      [C05_accepts_nonconforming_refuted] / [C05_rejects_conforming_refuted]   it does not on the witnesses (findings):
                                 [C05_witnesses] lists the accepted non-conforming ones; [C05_rejects_nullable_formal]
                                 is conditional on the generated flag [call_params_strip_nullable]
      [C05_conforms_local] [C05_nonconforming_anywhere] [C05_local_expr] [C05_stmt_exprs]   context cannot mask a violation
      [C05_args]                 what "right number of arguments (allowing defaults), each a subtype" means

    The model is tied to the code by the verdict correspondence of lib/vlib/c05.py (implementation vs
    [check impl_quirks] on generated programs and all their single-point mutants) and by the regenerated tables. *)
From Coq Require Import List String Bool.
From MambaModel Require Import model.Types model.TypingSig gen.Stubs gen.StubSigs model.Typing
  proofs.TypingProps proofs.TypingWitness.
Import ListNotations.
Local Open Scope string_scope.

Definition impl : quirks := impl_quirks call_params_strip_nullable.

Theorem C05_check_iff : forall p, check generated stub_sigs noq p = true <-> conforms generated stub_sigs p.
Proof. exact (check_noq_iff generated stub_sigs). Qed.

Theorem C05_check_iff_any_tables :
  forall builtins stubs p, check builtins stubs noq p = true <-> conforms builtins stubs p.
Proof. exact check_noq_iff. Qed.

Theorem C05_outside_known : forall p,
  known_free generated stub_sigs call_params_strip_nullable p = true ->
  (check generated stub_sigs impl p = true <-> conforms generated stub_sigs p).
Proof. exact (outside_known generated stub_sigs call_params_strip_nullable). Qed.

Theorem C05_known_classes : forall cx strip,
  (forall t, in_known cx strip (OFieldRecv t false) = negb (nonnull t)) /\                 (* field of a T? / None receiver *)
  (forall T t, in_known cx strip (OSub KHandleArm T t false) = negb (sup cx T t)) /\      (* handle arm value of another type *)
  (forall T t, in_known cx strip (OSub KParentArg T t false) = negb (sup cx T t)) /\      (* parent constructor argument *)
  (forall r, in_known cx strip (OFallOff r) = negb r) /\                                   (* body can fall off its end *)
  (forall ok, in_known cx strip (OJoin ok) = negb ok) /\                                   (* x ? d with unrelated alternatives *)
  (forall t, in_known cx strip (ORange false t false) = false) /\
  (forall t, in_known cx strip (ORange true t false) = negb (Bool.eqb (sup cx [t] tInt) (sup cx [tInt] t))) /\
  (forall T t, strip = false \/ forallb (fun t => negb (tnull t)) T = true ->
               in_known cx strip (OSub KFunArg T t false) = false) /\                      (* only T? formals of functions *)
  (forall k T t, match k with KFunArg | KHandleArm | KParentArg => False | _ => True end ->
                 in_known cx strip (OSub k T t false) = false) /\
  (forall k T t, in_known cx strip (OSub k T t true) =                                     (* a value that came out of x ? d *)
                 match k with KRecv => sup cx T t | _ => negb (sup cx T t) end).
Proof.
  intros cx strip. unfold in_known. repeat apply conj; intros; cbn.
  - destruct (nonnull t); reflexivity.
  - destruct (sup cx T t); reflexivity.
  - destruct (sup cx T t); reflexivity.
  - destruct r; reflexivity.
  - destruct ok; reflexivity.
  - destruct (sup cx [tInt] t); reflexivity.
  - reflexivity.
  - destruct H as [-> | H]; [|rewrite (strip_nonnull T H); destruct strip]; cbn; destruct (sup cx T t); reflexivity.
  - destruct k; try contradiction; destruct (sup cx T t); reflexivity.
  - destruct k; destruct (sup cx T t); reflexivity.
Qed.

Theorem C05_accepts_nonconforming_refuted :
  exists p, check generated stub_sigs impl p = true /\ ~ conforms generated stub_sigs p.
Proof. exact accepts_nonconforming_ex. Qed.

Theorem C05_witnesses :
  Forall (fun p => check generated stub_sigs impl p = true /\ ~ conforms generated stub_sigs p)
         [w_field; w_quest; w_range; w_falloff; w_handle; w_parent].
Proof. exact accepts_nonconforming. Qed.

Theorem C05_rejects_conforming_refuted :
  exists p, check generated stub_sigs impl p = false /\ conforms generated stub_sigs p.
Proof. exists w_loose. exact rejects_conforming_loose. Qed.

Theorem C05_rejects_nullable_formal :
  call_params_strip_nullable = true ->
  check generated stub_sigs impl w_param = false /\ conforms generated stub_sigs w_param.
Proof. exact rejects_conforming_param. Qed.

Theorem C05_conforms_local : forall p s,
  conforms generated stub_sigs p -> stmt_in_program s p ->
  exists R d1 d2, stmt_ok (cx_of generated p) (sigs_of stub_sigs p) (funs_of stub_sigs p) (fields_of p) R d1 s d2.
Proof. intros p s. apply conforms_local. Qed.

Theorem C05_nonconforming_anywhere : forall p s,
  stmt_in_program s p ->
  (forall R d1 d2, ~ stmt_ok (cx_of generated p) (sigs_of stub_sigs p) (funs_of stub_sigs p) (fields_of p) R d1 s d2) ->
  ~ conforms generated stub_sigs p.
Proof. intros p s. apply nonconforming_anywhere. Qed.

Theorem C05_local_expr : forall cx sigs funs fields d e e' t,
  subexpr e e' -> has_type cx sigs funs fields d e' t -> exists t', has_type cx sigs funs fields d e t'.
Proof. intros cx sigs funs fields d e e' t HS HT. exact (local_expr cx sigs funs fields d e e' HS (ex_intro _ t HT)). Qed.

Theorem C05_stmt_exprs : forall cx sigs funs fields R d s d' e,
  stmt_ok cx sigs funs fields R d s d' -> In e (stmt_exprs s) -> exists d1 t, has_type cx sigs funs fields d1 e t.
Proof. intros cx sigs funs fields R d s d' e H HI. exact (local_stmt_exprs cx sigs funs fields R d s d' e H HI). Qed.

Theorem C05_args : forall cx ps ts,
  args_ok cx ps ts <->
  List.length ts <= List.length ps /\
  (forall i p t, nth_error ps i = Some p -> nth_error ts i = Some t -> exists T, sp_ty p = Some T /\ sub cx T t) /\
  (forall i p, nth_error ps i = Some p -> List.length ts <= i -> sp_default p = true).
Proof. exact args_ok_spec. Qed.

(** non-vacuity: a conforming program outside the known classes that uses most constructs *)
Example C05_demo :
  conforms generated stub_sigs demo /\ check generated stub_sigs impl demo = true /\
  known_free generated stub_sigs call_params_strip_nullable demo = true.
Proof. exact demo_conforms. Qed.

Check C05_check_iff : forall p, check generated stub_sigs noq p = true <-> conforms generated stub_sigs p.
Check C05_outside_known : forall p,
  known_free generated stub_sigs call_params_strip_nullable p = true ->
  (check generated stub_sigs (impl_quirks call_params_strip_nullable) p = true <-> conforms generated stub_sigs p).
Check C05_accepts_nonconforming_refuted :
  exists p, check generated stub_sigs (impl_quirks call_params_strip_nullable) p = true /\ ~ conforms generated stub_sigs p.
Check C05_rejects_conforming_refuted :
  exists p, check generated stub_sigs (impl_quirks call_params_strip_nullable) p = false /\ conforms generated stub_sigs p.
Check C05_nonconforming_anywhere : forall p s,
  stmt_in_program s p ->
  (forall R d1 d2, ~ stmt_ok (cx_of generated p) (sigs_of stub_sigs p) (funs_of stub_sigs p) (fields_of p) R d1 s d2) ->
  ~ conforms generated stub_sigs p.
Print Assumptions C05_check_iff.
Print Assumptions C05_outside_known.
Print Assumptions C05_known_classes.
Print Assumptions C05_witnesses.
Print Assumptions C05_rejects_conforming_refuted.
Print Assumptions C05_conforms_local.
Print Assumptions C05_local_expr.
Print Assumptions C05_args.
