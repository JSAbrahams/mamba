(** * C17 - Interoperability: the Python API of the emitted module mirrors the Mamba definitions

    Over the model [Convert.conv] of the desugaring, for EVERY typed AST and both settings of the
    annotate flag:
    - [C17_api]: if the file converts and is well formed ([wf_api], decidable: function ids are
      identifiers, parameters and class arguments are named by identifiers, no class member shares its
      name with a method, no field is called [__init__], class arguments and an explicit constructor
      do not occur together, an explicit constructor starts with [self], a statement or member that is no
      definition is not, by its head, a definition or block ([opaque]) and a defined variable's value is
      absent or such, parents are parent nodes, the parent of a type definition is one non-nullable name),
      then the list of signatures read off the emitted [Core] ([api_py]: functions, classes with parents,
      constructor and methods, each with parameter names in order, variadic markers and presence of defaults) is the list
      read off the Mamba definitions ([api_src]) with names mapped by [py_sig] (the Mamba -> Python name
      table; operators under their dunder name; [size] -> [__size__]).
    - [C17_api_same_names]: when no name is renamed by [py_sig] the two lists are equal verbatim.
    - pieces: [C17_fun_sig_preserved], [C17_fun_arg_preserved], [C17_class_parents_preserved],
      [C17_init_signature] + [C17_init_exists] + [C17_class_body] (constructor), [C17_methods_preserved].
    - refuted for the faithful model: [C17_same_names_refuted] ([size], D14), [C17_duplicate_member_refuted],
      [C17_method_shadowed_by_field_refuted], [C17_class_args_lost_refuted] (unreachable: the checker
      rejects such classes), [C17_plain_statement_dropped] (statements keyed ["@"]).
    The tie to the Rust code is the `gen` correspondence (typed AST in, Core out) on class-heavy programs and
    the direct oracle (python3 [ast] of the emitted text against the generator's own definition list). *)
From Coq Require Import List String Bool.
From MambaModel Require Import model.Core gen.Names model.Convert model.Api
  proofs.ApiBase proofs.ApiClass proofs.ApiProps proofs.ApiWitness.
Import ListNotations.
Local Open Scope string_scope.

Theorem C17_api :
  forall ann a c j,
    conv a (state0 ann) imports0 = Some (c, j) -> wf_api a = true -> api_py c = map py_sig (api_src a).
Proof. intros ann a c j. exact (api_preserved _ _ a c j (clean_state0 ann)). Qed.

Theorem C17_api_same_names :
  forall ann a c j,
    conv a (state0 ann) imports0 = Some (c, j) -> wf_api a = true ->
    forallb plain_sig (api_src a) = true -> api_py c = api_src a.
Proof.
  intros ann a c j E Hwf Hp. rewrite (C17_api ann a c j E Hwf). exact (map_same py_sig plain_sig _ py_sig_same Hp).
Qed.

Theorem C17_fun_sig_preserved :
  forall a st i c j,
    wf_fun a = true -> clean st -> conv a st i = Some (c, j) ->
    exists f, fsig_src a = Some f /\ fsig_py c = Some (py_fsig f) /\ isfun c = true
              /\ forallb funarg_id (fun_args c) = true.
Proof. exact fun_sig_preserved. Qed.

Theorem C17_fun_arg_preserved :
  forall a st i c j,
    wf_param a = true -> clean st -> conv a st i = Some (c, j) ->
    param_py c = py_param (param_src a) /\ funarg_id c = true.
Proof. exact fun_arg_preserved. Qed.

Theorem C17_class_parents_preserved :
  forall parents st ps pn,
    forallb is_parent parents = true -> clean st ->
    Forall2 (fun x y => exists i j, conv x st i = Some (y, j)) parents ps ->
    map parent_name ps = map Some pn ->
    map core_name pn = map concrete_to_python (map parent_src parents).
Proof. exact parents_preserved. Qed.

(** the synthesised constructor: parameters of the explicit [__init__] if there is one (class arguments are
    then lost), else the class arguments; [self] in front unless already there *)
Theorem C17_init_signature :
  forall o ca ps ni,
    class_init o ca ps = Some ni ->
    fsig_py ni = Some (n_init, map param_py (let args := init_args o ca in
                                              if first_is_self_core args then args else Id n_self_ :: args)).
Proof. exact class_init_sig. Qed.

(** exactly when class arguments are the parameters: without an explicit [__init__] in the body they are,
    with one they are not (whatever they are) *)
Theorem C17_class_args_kept :
  forall ca ps ni,
    class_init None ca ps = Some ni -> forallb funarg_id ca = true ->
    fsig_py ni = Some (n_init, with_self (map param_py ca)).
Proof. intros ca ps. exact (class_init_with_self None ca ps). Qed.

Theorem C17_class_args_lost :
  forall d id arg t b ca ps ni,
    class_init (Some (FunDef d id arg t b)) ca ps = Some ni -> forallb funarg_id arg = true ->
    fsig_py ni = Some (n_init, with_self (map param_py arg)).
Proof. intros d id arg t b ca ps. exact (class_init_with_self (Some (FunDef d id arg t b)) ca ps). Qed.

Theorem C17_init_field_clobbers :
  forall v t e ca ps ni,
    class_init (Some (VarDef v t e)) ca ps = Some ni -> fsig_py ni = Some (n_init, [self_param]).
Proof. intros v t e ca ps ni H. rewrite (class_init_sig _ _ _ _ H). reflexivity. Qed.

Theorem C17_init_exists :
  forall ca ps, forallb funarg_id ca = true -> (class_init None ca ps = None <-> ca = [] /\ ps = []).
Proof. exact class_init_none_iff. Qed.

Theorem C17_class_body :
  forall st body b i0 j0 cargs ca ps pn bs,
    clean st -> wf_body cargs body = true ->
    mopt (fun x => conv x st) body i0 = Some (b, j0) ->
    map param_py ca = map py_param cargs -> forallb funarg_id ca = true ->
    assemble_class (match b with Some x => block_stmts x | None => [] end) ca ps = Some (pn, bs) ->
    find is_init (funs_py bs) = option_map py_fsig (ctor_src cargs (List.length ps) (funs_src (members_of body))) /\
    filter (fun f => negb (is_init f)) (funs_py bs)
    = map py_fsig (filter (fun f => negb (is_init f)) (funs_src (members_of body))).
Proof. exact body_api. Qed.

Theorem C17_methods_preserved :
  forall cs ca ps pn body,
    assemble_class cs ca ps = Some (pn, body) -> kok cs -> filter is_meth body = filter is_meth cs.
Proof. exact assemble_methods. Qed.

Theorem C17_same_names_refuted :
  exists ann a c j, conv a (state0 ann) imports0 = Some (c, j) /\ wf_api a = true /\ api_py c <> api_src a.
Proof.
  destruct size_witness as (Hwf & E & Hsrc). exists false, w_size. eexists. eexists.
  split; [exact E|]. split; [exact Hwf|]. rewrite Hsrc. discriminate.
Qed.

Theorem C17_duplicate_member_refuted :
  exists ann a c j, conv a (state0 ann) imports0 = Some (c, j) /\ api_py c <> map py_sig (api_src a).
Proof. exists false, w_dup. eexists. eexists. split; [vm_compute; reflexivity|]. vm_compute. discriminate. Qed.

Theorem C17_method_shadowed_by_field_refuted :
  exists ann a c j, conv a (state0 ann) imports0 = Some (c, j) /\
    api_py c = [SClass "C" [] None []] /\ api_src a = [SClass "C" [] None [("f", [("self", false, false)])]].
Proof. exists false, w_shadow. eexists. eexists. split; [vm_compute; reflexivity|]. split; vm_compute; reflexivity. Qed.

Theorem C17_class_args_lost_refuted :
  exists ann a c j, conv a (state0 ann) imports0 = Some (c, j) /\
    api_py c = [SClass "C" [] (Some ("__init__", [("self", false, false); ("b", false, false)])) []] /\
    map py_sig (api_src a) = [SClass "C" [] (Some ("__init__", [("self", false, false); ("a", false, false)])) []].
Proof. exists false, w_lost. eexists. eexists. split; [vm_compute; reflexivity|]. split; vm_compute; reflexivity. Qed.

Theorem C17_plain_statement_dropped :
  assemble_class [DocStr "one"; DocStr "two"] [] [] = Some ([], [DocStr "two"]).
Proof. reflexivity. Qed.

(** Non-vacuity: [ApiWitness.sample] (function with default and variadic parameter, interface, class
    arguments, parents with arguments, two parents, explicit constructor, operator, [size]) is well formed;
    its API under both settings is computed in [ApiWitness.sample_api]. *)
Example C17_sample_wf : wf_api sample = true.
Proof. exact sample_wf. Qed.
Example C17_sample_plain :
  wf_api sample_plain = true /\ forallb plain_sig (api_src sample_plain) = true /\
  exists c j, conv sample_plain (state0 true) imports0 = Some (c, j).
Proof. exact sample_plain_ok. Qed.

(* each [Check] pins the statement of the theorem it names *)
Check C17_api :
  forall ann a c j,
    conv a (state0 ann) imports0 = Some (c, j) -> wf_api a = true -> api_py c = map py_sig (api_src a).
Check C17_api_same_names :
  forall ann a c j,
    conv a (state0 ann) imports0 = Some (c, j) -> wf_api a = true ->
    forallb plain_sig (api_src a) = true -> api_py c = api_src a.
Check C17_methods_preserved :
  forall cs ca ps pn body,
    assemble_class cs ca ps = Some (pn, body) -> kok cs -> filter is_meth body = filter is_meth cs.
Check C17_same_names_refuted :
  exists ann a c j, conv a (state0 ann) imports0 = Some (c, j) /\ wf_api a = true /\ api_py c <> api_src a.
Print Assumptions C17_api.
Print Assumptions C17_api_same_names.
Print Assumptions C17_fun_sig_preserved.
Print Assumptions C17_fun_arg_preserved.
Print Assumptions C17_class_parents_preserved.
Print Assumptions C17_init_signature.
Print Assumptions C17_class_args_kept.
Print Assumptions C17_class_args_lost.
Print Assumptions C17_init_field_clobbers.
Print Assumptions C17_init_exists.
Print Assumptions C17_class_body.
Print Assumptions C17_methods_preserved.
Print Assumptions C17_same_names_refuted.
Print Assumptions C17_duplicate_member_refuted.
Print Assumptions C17_method_shadowed_by_field_refuted.
Print Assumptions C17_class_args_lost_refuted.
Print Assumptions C17_plain_statement_dropped.
