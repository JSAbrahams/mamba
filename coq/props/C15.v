(** * C15 - renaming user identifiers commutes with transpilation

    Over the model [Convert.conv]/[Convert.gen] of the generation stage (all node kinds, classes
    included), for EVERY typed AST and state, and for every renaming [rho] of identifiers that is
    injective and fixes the names of [Rename.reserved] (the import record: any for the converted value,
    [C15_conv_equivariant_value]; one whose registered names [rho] fixes, and it stays so,
    [C15_imports_stay_fixed], where the record is renamed too):
    - [C15_conv_equivariant]: converting the renamed tree gives the renamed result
      ([ren_ast] renames identifiers, called names, class/type names and every recorded type;
      [ren_core] renames [Id], [Type_], function names, imported names, and the alias string of
      a [NewType] call; [rfs] is the same renaming inside interpolated-string text);
    - [C15_gen_equivariant]: the emitted module of the renamed program is the renamed module;
    - [C15_verdict]: generation fails for the renamed tree iff it fails for the original.
    [reserved] is what the proof forces: the rows of the Mamba->Python name table that change the spelling
    (both columns), the operator method names, [range slice Tuple Callable Union Any Optional self __init__
    size __size__ NewType ABC abstractmethod math] and the non-identifier [@]; [typing], [abc], [init], [super], [None],
    [Exception] are NOT in it.  [C15_reserved_needed]: no member can be dropped.
    Outside [reserved] the statement is false: [C15_size_refuted] (D14), [C15_builtin_spelling_refuted],
    [C15_import_capture_refuted] (D20), and - for the order in which the checker hands over union
    members - [C15_union_order_refuted].
    NOT covered by a theorem: that the checker produces [ren_ast rho a] for the renamed source (the
    checker is not modelled); lib/vlib/c15.py compares the typed ASTs and the emitted Python. *)
From Coq Require Import List String.
From MambaModel Require Import model.Core gen.Names model.Convert model.Rename
  proofs.RenameConv proofs.RenameWitness.
Import ListNotations.
Local Open Scope string_scope.

Theorem C15_conv_equivariant :
  forall rho rfs, injective rho -> fixes rho reserved ->
  forall a st i, imports_fixed rho rfs i ->
    conv (ren_ast rho rfs a) (ren_state rho rfs st) (ren_imports rho rfs i)
    = option_map (ren_result rho rfs) (conv a st i).
Proof. exact conv_equivariant. Qed.

Theorem C15_conv_equivariant_value :
  forall rho rfs, injective rho -> fixes rho reserved ->
  forall a st i,
    conv (ren_ast rho rfs a) (ren_state rho rfs st) i
    = option_map (fun r => (ren_core rho rfs (fst r), snd r)) (conv a st i).
Proof. exact conv_equivariant_value. Qed.

Theorem C15_imports_stay_fixed :
  forall rho rfs, injective rho -> fixes rho reserved ->
  forall a st i c j, imports_fixed rho rfs i -> conv a st i = Some (c, j) -> imports_fixed rho rfs j.
Proof. intros rho rfs _. exact (conv_keeps_imports_fixed rho rfs). Qed.

Theorem C15_gen_equivariant :
  forall rho rfs, injective rho -> fixes rho reserved ->
  forall ann a, gen ann (ren_ast rho rfs a) = option_map (ren_core rho rfs) (gen ann a).
Proof. exact gen_equivariant. Qed.

Theorem C15_verdict :
  forall rho rfs, injective rho -> fixes rho reserved ->
  forall ann a, gen ann (ren_ast rho rfs a) = None <-> gen ann a = None.
Proof. exact gen_verdict. Qed.

(** the hypotheses hold of [imports0] and of a renaming that moves a user name *)
Example C15_imports0_fixed : forall rho rfs, imports_fixed rho rfs imports0.
Proof. exact imports0_fixed. Qed.
Example C15_hypotheses_satisfiable : injective rho_ok /\ fixes rho_ok reserved.
Proof. exact rho_ok_good. Qed.
Example C15_nontrivial :
  exists g, gen true sample = Some g /\ gen true (ren_ast rho_ok idf sample) = Some (ren_core rho_ok idf g)
            /\ ren_core rho_ok idf g <> g.
Proof. exact sample_renamed_differs. Qed.

Theorem C15_size_refuted :
  exists rho a,
    injective rho /\ (forall s, In s reserved -> s <> "size" -> rho s = s) /\
    gen false (ren_ast rho idf a) <> option_map (ren_core rho idf) (gen false a).
Proof. exact size_refuted. Qed.

Theorem C15_builtin_spelling_refuted :
  exists rho a,
    injective rho /\ (forall s, In s reserved -> s <> "List" -> rho s = s) /\
    gen false (ren_ast rho idf a) <> option_map (ren_core rho idf) (gen false a).
Proof. exact builtin_spelling_refuted. Qed.

Theorem C15_import_capture_refuted :
  exists rho a,
    injective rho /\ (forall s, In s reserved -> s <> "math" -> rho s = s) /\
    gen false (ren_ast rho idf a) <> option_map (ren_core rho idf) (gen false a).
Proof. exact import_capture_refuted. Qed.

Theorem C15_no_capture_refuted :
  exists rest, gen false (ren_ast (swap "math" "m") idf math_prog)
               = Some (Block (Import None [Id "math"] [] :: VarDef (Id "math") None (Some (Int "3")) :: rest)).
Proof. exact no_capture_refuted. Qed.

Theorem C15_union_order_refuted :
  exists rho n,
    injective rho /\ fixes rho reserved /\ (match n with NM ms => sort_tns ms = ms end) /\
    fst (nm_to_py (ren_nm_sorted rho n) imports0) <> ren_core rho idf (fst (nm_to_py n imports0)).
Proof. exact union_order_refuted. Qed.

Theorem C15_reserved_needed :
  forall r, In r reserved ->
    injective (swap r fresh) /\ (forall s, In s reserved -> s <> r -> swap r fresh s = s) /\
    gen true (ren_ast (swap r fresh) idf univ) <> option_map (ren_core (swap r fresh) idf) (gen true univ).
Proof. exact reserved_needed. Qed.

Check C15_conv_equivariant :
  forall rho rfs, injective rho -> fixes rho reserved ->
  forall a st i, imports_fixed rho rfs i ->
    conv (ren_ast rho rfs a) (ren_state rho rfs st) (ren_imports rho rfs i)
    = option_map (ren_result rho rfs) (conv a st i).
Check C15_gen_equivariant :
  forall rho rfs, injective rho -> fixes rho reserved ->
  forall ann a, gen ann (ren_ast rho rfs a) = option_map (ren_core rho rfs) (gen ann a).
Check C15_verdict :
  forall rho rfs, injective rho -> fixes rho reserved ->
  forall ann a, gen ann (ren_ast rho rfs a) = None <-> gen ann a = None.
Check C15_size_refuted :
  exists rho a,
    injective rho /\ (forall s, In s reserved -> s <> "size" -> rho s = s) /\
    gen false (ren_ast rho idf a) <> option_map (ren_core rho idf) (gen false a).
Print Assumptions C15_conv_equivariant.
Print Assumptions C15_conv_equivariant_value.
Print Assumptions C15_imports_stay_fixed.
Print Assumptions C15_gen_equivariant.
Print Assumptions C15_verdict.
Print Assumptions C15_size_refuted.
Print Assumptions C15_builtin_spelling_refuted.
Print Assumptions C15_import_capture_refuted.
Print Assumptions C15_union_order_refuted.
Print Assumptions C15_reserved_needed.
