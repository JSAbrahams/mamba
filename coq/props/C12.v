(** * C12 - determinism: verdict and emitted bytes depend on the input alone

    WHAT IS PROVED HERE.  [model/Order.v] models the places of the transpiler where a [HashSet]/[HashMap]
    iteration order can reach the verdict or the emitted bytes as functions of (input, enumeration order).  The
    theorems below remove the second argument: for ALL contents and ALL permutations of them the result is
    the same - under a stated side condition where the code needs one, and with a [_refuted] witness showing
    that the side condition is necessary (the three look-up witnesses of (c) are also concrete programs on
    which the real transpiler was observed to give different results in one process: D30, D31, D32 of
    known_findings.json).  Class bodies need no side condition (D15 was repaired in /repo commit 88d54a3).

    WHY [C12_partial] IS PARTIAL (and what covers the rest).
    (i)  Only the sites listed in [model/Order.v] are modelled.  The constraint generator's and the unifier's
         own iterations over sets and maps ([check/constrain/**]: [match_name]'s fold, [temp_map], [substitute],
         the order in which [Finished::push_ty] meets types - [push_ty] and [arms_type] of the model take it
         as given -, ...) are NOT modelled; neither is the text of diagnostics ([Display for Name] prints a
         union in hash order).
    (ii) A model is a mathematical function: it cannot exhibit a data race, a dependence on global state, on
         time, on another thread or on an earlier run.  "Different processes / threads / histories" is
         therefore not a theorem here at all.
    Both gaps are covered only by RUNTIME TESTING: the [repeat] endpoint of the harness runs the real
    [mamba_to_python] on the same input 16 times in one process (each hash table gets a fresh seed), on 8
    threads at once, after an unrelated warm-up workload, and in 3 separate processes, and
    [lib/vlib/c12.py] requires one verdict and byte-identical output; it also compares, for the modelled
    sites, the set of outputs the model predicts over all permutations with the set observed. *)
From Coq Require Import List String Bool Permutation.
Import ListNotations.
Local Open Scope string_scope.
From MambaModel Require Import model.Order proofs.OrderProps.

(** (a) a type union is rendered the same whatever order its member set is iterated in (members are sorted) *)
Theorem C12_render_union_perm : forall fuel l l',
  NoDup (map canon l) -> Permutation l l' -> to_py_name fuel l = to_py_name fuel l'.
Proof. exact render_union_perm. Qed.

(** (b) the statements of a class body come out in the same order whatever the iteration orders of the
    HashMap before ([e1]) and after ([e2]) the constructor is inserted - for EVERY class body: since /repo commit
    88d54a3 the recorded position is a pair (slot, kind) and the pairs are pairwise distinct
    ([C12_positions_distinct]) *)
Theorem C12_class_body_perm : forall mk ms e1 e1' e2 e2',
  Permutation (entries ms) e1 -> Permutation (entries ms) e1' ->
  Permutation (add_init mk e1) e2 -> Permutation (add_init mk e1') e2' ->
  class_body e2 = class_body e2'.
Proof. exact class_body_deterministic. Qed.

Theorem C12_positions_distinct : forall mk ms, NoDup (map e_pk (add_init mk (entries ms))).
Proof. exact positions_distinct. Qed.

(** historical: the numbering before 88d54a3 (slot only, [class_body_old]) was order-dependent on the D15 witness,
    where the current one is not *)
Theorem C12_old_numbering_refuted :
  exists ms e e',
    Permutation (add_init false (entries ms)) e /\ Permutation (add_init false (entries ms)) e' /\
    class_body_old e <> class_body_old e' /\ class_body e = class_body e'.
Proof. exact d15_old_numbering_refuted. Qed.

(** (c) context lookups: deterministic when base names are unique, not otherwise *)
Theorem C12_class_lookup_perm : forall n l l',
  NoDup (map g_name l) -> Permutation l l' -> class_lookup n l = class_lookup n l'.
Proof.
  intros n l l'. apply (find_by_name_perm n). intros x Px. now apply String.eqb_eq.
Qed.

Theorem C12_class_lookup_refuted :
  exists defs n e e',
    Permutation (ctx_build defs) e /\ Permutation (ctx_build defs) e' /\
    class_lookup n e <> class_lookup n e'.
Proof. exact class_lookup_refuted. Qed.

Theorem C12_fun_lookup_perm : forall n g l l',
  NoDup (map g_name l) -> Permutation l l' -> fun_lookup n g l = fun_lookup n g l'.
Proof.
  intros n g l l'. apply (find_by_name_perm n). intros x Px.
  apply andb_true_iff in Px. now apply String.eqb_eq.
Qed.

Theorem C12_fun_lookup_refuted :
  exists defs n e e',
    Permutation (ctx_build defs) e /\ Permutation (ctx_build defs) e' /\
    fun_lookup n [] e <> fun_lookup n [] e'.
Proof. exact fun_lookup_refuted. Qed.

Theorem C12_member_lookup_perm : forall n self ps ps',
  NoDup (map g_name (List.concat ps)) -> Permutation ps ps' ->
  member_lookup n self ps = member_lookup n self ps'.
Proof.
  intros n self ps ps' Hn Hp. rewrite !member_lookup_flat.
  destruct (class_lookup n self); [reflexivity|].
  apply (find_by_name_perm n); [|exact Hn|now apply concat_perm]. intros x Px. now apply String.eqb_eq.
Qed.

Theorem C12_member_lookup_refuted :
  exists n self ps ps', Permutation ps ps' /\ member_lookup n self ps <> member_lookup n self ps'.
Proof.
  exists "f", [], [[p1_f]; [p2_f]], [[p2_f]; [p1_f]]. split; [apply perm_swap|]. vm_compute. discriminate.
Qed.

(** (d) "first element" choices: deterministic when the members agree on what is read off the first one *)
Theorem C12_is_temporary_perm : forall l l',
  (forall x y, In x l -> In y l -> is_temp x = is_temp y) ->
  Permutation l l' -> is_temporary l = is_temporary l'.
Proof. exact is_temporary_perm. Qed.

Theorem C12_is_temporary_refuted :
  exists l l', Permutation l l' /\ is_temporary l <> is_temporary l'.
Proof.
 exists [tn "@1"; tn "Int"], [tn "Int"; tn "@1"]. split; [apply perm_swap|]. vm_compute. discriminate.
Qed.

Theorem C12_callable_args_perm : forall l l',
  (forall x y, In x l -> In y l -> tn_generics x = tn_generics y) ->
  Permutation l l' -> callable_args l = callable_args l'.
Proof.
  intros l l' H Hp. apply (hd_const_perm tn_generics) in Hp; [|exact H].
  destruct l, l'; cbn in *; congruence.
Qed.

(** (e) unions and [trim_super] produce the same SET whatever the orders *)
Theorem C12_name_union_perm : forall a a' b b',
  Permutation a a' -> Permutation b b' -> seteq (name_union a b) (name_union a' b').
Proof. intros. apply name_union_seteq; now apply perm_seteq. Qed.

Theorem C12_trim_super_perm : forall sup l l',
  Permutation l l' -> Permutation (trim_super sup l) (trim_super sup l').
Proof.
  intros sup l l' Hp. unfold trim_super. rewrite (Permutation_length Hp).
  destruct (Nat.ltb 1 (List.length l')); [|exact Hp].
  etransitivity; [apply filter_perm; exact Hp|].
  erewrite filter_ext; [reflexivity|]. intros n. now apply existsb_perm.
Qed.

(** the executable enumeration of hash orders used by the correspondence check is the theorems' quantifier *)
Theorem C12_perms_spec : forall (l p : list entry), In p (perms l) <-> Permutation l p.
Proof. exact perms_spec. Qed.

(** The conjunction.  PARTIAL: see the header - unmodelled unifier iterations, and processes / threads /
    histories, are covered by runtime testing only. *)
Definition C12_partial_statement : Prop :=
  (forall fuel l l', NoDup (map canon l) -> Permutation l l' -> to_py_name fuel l = to_py_name fuel l') /\
  (forall mk ms e1 e1' e2 e2',
     Permutation (entries ms) e1 -> Permutation (entries ms) e1' ->
     Permutation (add_init mk e1) e2 -> Permutation (add_init mk e1') e2' ->
     class_body e2 = class_body e2') /\
  (forall n l l', NoDup (map g_name l) -> Permutation l l' -> class_lookup n l = class_lookup n l') /\
  (forall n g l l', NoDup (map g_name l) -> Permutation l l' -> fun_lookup n g l = fun_lookup n g l') /\
  (forall n self ps ps', NoDup (map g_name (List.concat ps)) -> Permutation ps ps' ->
     member_lookup n self ps = member_lookup n self ps') /\
  (forall l l', (forall x y, In x l -> In y l -> is_temp x = is_temp y) ->
     Permutation l l' -> is_temporary l = is_temporary l') /\
  (forall l l', (forall x y, In x l -> In y l -> tn_generics x = tn_generics y) ->
     Permutation l l' -> callable_args l = callable_args l') /\
  (forall a a' b b', Permutation a a' -> Permutation b b' -> seteq (name_union a b) (name_union a' b')) /\
  (forall sup l l', Permutation l l' -> Permutation (trim_super sup l) (trim_super sup l')).

Theorem C12_partial : C12_partial_statement.
Proof.
  repeat split.
  - exact C12_render_union_perm.
  - exact C12_class_body_perm.
  - exact C12_class_lookup_perm.
  - exact C12_fun_lookup_perm.
  - exact C12_member_lookup_perm.
  - exact C12_is_temporary_perm.
  - exact C12_callable_args_perm.
  - exact C12_name_union_perm.
  - exact C12_trim_super_perm.
Qed.

(** Non-vacuity of the hypotheses. *)
Example C12_example_union :
  NoDup (map canon [tn "MyB"; tn "Float"; TN true true "List" [[tn "Str"; tn "Int"]]]) /\
  render 5 [tn "MyB"; tn "Float"; TN true true "List" [[tn "Str"; tn "Int"]]]
    = "Union[float, Optional[list[Union[int, str]]], MyB]".
Proof. split; [vm_compute; repeat constructor; cbn; intuition discriminate|reflexivity]. Qed.

Example C12_example_class_body :
  class_body_outcomes true [MOther; MVar "a" true; MVar "b" true; MFun "m1"; MFun "m2"]
    = [[LStmt 0; LStmt 1; LStmt 2; LInit; LStmt 3; LStmt 4]] /\
  (* the D15 witness and [field, method, field] with a generated constructor: one body each *)
  class_body_outcomes false d15_members = [[LStmt 1; LStmt 2; LStmt 0; LStmt 4; LStmt 3]] /\
  class_body_outcomes true [MVar "f1" true; MFun "m1"; MVar "f2" true] = [[LStmt 0; LStmt 2; LInit; LStmt 1]].
Proof. repeat split; vm_compute; reflexivity. Qed.

Example C12_example_lookup_hyp : NoDup (map g_name [foo_plain; helper_int; p1_f]).
Proof. vm_compute. repeat constructor; cbn; intuition discriminate. Qed.

(* each [Check] pins the statement of the theorem it names *)
Check C12_render_union_perm : forall fuel l l',
  NoDup (map canon l) -> Permutation l l' -> to_py_name fuel l = to_py_name fuel l'.
Check C12_class_body_perm : forall mk ms e1 e1' e2 e2',
  Permutation (entries ms) e1 -> Permutation (entries ms) e1' ->
  Permutation (add_init mk e1) e2 -> Permutation (add_init mk e1') e2' ->
  class_body e2 = class_body e2'.
Check C12_positions_distinct : forall mk ms, NoDup (map e_pk (add_init mk (entries ms))).
Check C12_class_lookup_perm : forall n l l',
  NoDup (map g_name l) -> Permutation l l' -> class_lookup n l = class_lookup n l'.
Check C12_class_lookup_refuted : exists defs n e e',
  Permutation (ctx_build defs) e /\ Permutation (ctx_build defs) e' /\ class_lookup n e <> class_lookup n e'.
Check C12_fun_lookup_refuted : exists defs n e e',
  Permutation (ctx_build defs) e /\ Permutation (ctx_build defs) e' /\ fun_lookup n [] e <> fun_lookup n [] e'.
Check C12_member_lookup_perm : forall n self ps ps',
  NoDup (map g_name (List.concat ps)) -> Permutation ps ps' ->
  member_lookup n self ps = member_lookup n self ps'.
Check C12_member_lookup_refuted : exists n self ps ps',
  Permutation ps ps' /\ member_lookup n self ps <> member_lookup n self ps'.
Check C12_is_temporary_perm : forall l l',
  (forall x y, In x l -> In y l -> is_temp x = is_temp y) ->
  Permutation l l' -> is_temporary l = is_temporary l'.
Check C12_name_union_perm : forall a a' b b',
  Permutation a a' -> Permutation b b' -> seteq (name_union a b) (name_union a' b').
Check C12_trim_super_perm : forall sup l l',
  Permutation l l' -> Permutation (trim_super sup l) (trim_super sup l').
Check C12_partial : C12_partial_statement.

Print Assumptions C12_partial.
Print Assumptions C12_render_union_perm.
Print Assumptions C12_class_body_perm.
Print Assumptions C12_positions_distinct.
Print Assumptions C12_old_numbering_refuted.
Print Assumptions C12_class_lookup_refuted.
Print Assumptions C12_fun_lookup_refuted.
Print Assumptions C12_member_lookup_perm.
Print Assumptions C12_member_lookup_refuted.
Print Assumptions C12_is_temporary_refuted.
Print Assumptions C12_name_union_perm.
Print Assumptions C12_perms_spec.
