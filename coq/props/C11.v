(** * C11 - the annotate option is semantically inert

    Over the model [Convert.conv] of the desugaring (all node kinds, class and type definitions
    included), for EVERY typed AST:
    - [C11_verdict]: conversion with annotation succeeds iff conversion without it does;
    - [C11_erase]:   the two results are equal once annotations are erased, the plain
                     imports are identical and so are the from-imports outside [typing];
    - [C11_module]:  the statement lists of the two emitted modules are equal after erasing
                     annotations and dropping the [from typing import ..] lines.
    [gen] (the model of [gen_arguments]) wraps exactly these statement lists ([C11_gen_is_module]).
    The tie to the Rust code is the `gen` correspondence (typed AST in, Core out, both flags). *)
From Coq Require Import List String.
From MambaModel Require Import model.Core gen.Names model.Convert proofs.ConvertProps proofs.ConvertSim.
Import ListNotations.
Local Open Scope string_scope.

Theorem C11_verdict :
  forall a, conv a (state0 true) imports0 = None <-> conv a (state0 false) imports0 = None.
Proof.
  intros a. pose proof (conv_inert a) as H.
  destruct (conv a (state0 true) imports0) as [[c1 j1]|], (conv a (state0 false) imports0) as [[c0 j0]|];
    try contradiction; split; intros E; try discriminate E; reflexivity.
Qed.

Theorem C11_erase :
  forall a c1 j1 c0 j0,
    conv a (state0 true) imports0 = Some (c1, j1) -> conv a (state0 false) imports0 = Some (c0, j0) ->
    erase c1 = erase c0 /\ imps j1 = imps j0 /\ nontyping (from_imps j1) = nontyping (from_imps j0).
Proof. intros a c1 j1 c0 j0 H1 H0. pose proof (conv_inert a) as H. rewrite H1, H0 in H. exact H. Qed.

Theorem C11_module :
  forall a c1 j1 c0 j0,
    conv a (state0 true) imports0 = Some (c1, j1) -> conv a (state0 false) imports0 = Some (c0, j0) ->
    strip_stmts (module_stmts c1 j1) = strip_stmts (module_stmts c0 j0).
Proof.
  intros a c1 j1 c0 j0 H1 H0. destruct (C11_erase a c1 j1 c0 j0 H1 H0) as (Hc & Hi & Hf).
  unfold strip_stmts, module_stmts, import_list.
  rewrite !map_app, !filter_app, !filter_from_imports, !stmts_of_erase, Hc, Hi, Hf. reflexivity.
Qed.

Theorem C11_gen_is_module :
  forall ann a,
    gen ann a =
    match conv a (state0 ann) imports0 with
    | Some (c, j) =>
        match c with
        | Block _ => Some (Block (module_stmts c j))
        | _ => if imports_empty j then Some c else Some (Block (module_stmts c j))
        end
    | None => None
    end.
Proof. exact gen_is_module. Qed.

(** Non-vacuity: [def f(x: Int?) -> Int => x ? 1] followed by [def a: Int := f(None)] converts under both
    settings, to different trees that agree after erasing annotations and dropping the [typing] import ([strip]). *)
Definition int_ty : nm := NM [TN false "Int" []].
Definition opt_int : nm := NM [TN true "Int" []].
Definition sample : ast :=
  A None (NBlock [
    A None (NFunDef (A None (NId "f"))
              [A None (NFunArg false (A (Some opt_int) (NId "x")) (Some opt_int) None)]
              (Some int_ty)
              (Some (A (Some int_ty) (NBin SQuestion (A (Some opt_int) (NId "x")) (A (Some int_ty) (NInt "1"))))));
    A None (NVarDef (A (Some int_ty) (NId "a")) (Some int_ty)
              (Some (A (Some int_ty) (NCall "f" [] [A None NUndefined]))))]).
Example sample_differs :
  exists g1 g0, gen true sample = Some g1 /\ gen false sample = Some g0 /\ g1 <> g0 /\ strip g1 = strip g0.
Proof. eexists. eexists. split; [vm_compute; reflexivity|]. split; [vm_compute; reflexivity|].
  split; [discriminate | vm_compute; reflexivity]. Qed.

Check C11_verdict : forall a, conv a (state0 true) imports0 = None <-> conv a (state0 false) imports0 = None.
Check C11_module : forall a c1 j1 c0 j0,
    conv a (state0 true) imports0 = Some (c1, j1) -> conv a (state0 false) imports0 = Some (c0, j0) ->
    strip_stmts (module_stmts c1 j1) = strip_stmts (module_stmts c0 j0).
Print Assumptions C11_verdict.
Print Assumptions C11_erase.
Print Assumptions C11_module.
