(** * C18 - token positions are exact and indentation tokens are balanced

    Statements are about [tokenize] of model/Lex.v (tied to the Rust lexer by the
    generated keyword/spelling tables and the byte-for-byte `lex` correspondence).
    [run_tls s] is the token list of [tokenize s] before the tokens of interpolated
    expressions are flattened in ([tokenize_run]).

    Full property, as far as it is true of the code:
    - [C18_scan_exact]       every token other than a line break or a string literal consumes
                             exactly the characters of its spelling;
    - [C18_positions_track]  on every accepted input outside the known string classes
                             ([clean]: literals terminated, single-line) the recorded span of
                             every source token other than a doc-string is the span of its
                             spelling in the input;
    - [C18_balanced]         with indentation in multiples of four ([aligned]) Indent and
                             Dedent tokens balance;
    - [C18_single_eof]       exactly one Eof token, on every accepted input.
    The last three speak of the top-level tokens ([map top tls]), not of the tokens of
    interpolated expressions.
    Refuted parts (known findings, witnesses evaluated below): D18, D27, D28, D24.
    Not proved here: that the Eof token is the LAST token; `relex` (spelling a token sequence
    and lexing it back) - correspondence only. *)
From Coq Require Import List Ascii ZArith String.
From MambaModel Require Import model.LexTok gen.LexTables model.Lex proofs.LexProps.
Import ListNotations.
Local Open Scope Z_scope.

Theorem C18_scan_exact :
  forall c r t rest, scan c r = STok t rest -> t <> MNL -> spell t ++ rest = c :: r.
Proof.
  intros c r t rest H Hne. apply scan_tok_spec in H as [[Hc _] | (_ & H & _)]; [contradiction | exact H].
Qed.

Theorem C18_positions_track :
  forall s tls,
    clean (run_fuel s) s = true -> run_tls s = Some tls ->
    Forall (fun l => synthetic (ltok l) = true \/ is_docstr (ltok l) = true \/ tok_ok s l)
           (map top tls).
Proof.
  intros s tls Hcl Hrun. apply run_tls_some in Hrun as (st & acc & p & Hloop & ->).
  pose proof (loop_positions s _ s state0 [] [] _ _ eq_refl eq_refl nls_ok0 Hcl (Forall_nil _) Hloop) as Hacc.
  apply doc_pass_in.
  - intros l Hl. right. left. exact Hl.
  - discriminate.
  - discriminate.
  - rewrite !tops_app, !tops_tl0. cbn [map top tl0]. apply Forall_app. split; [apply Forall_app; split|].
    + revert Hacc. apply Forall_impl. intros l [H | H]; [left; exact H | right; right; exact H].
    + generalize (flush_dedents st). apply Forall_impl. intros l ->. left. reflexivity.
    + constructor; [left; reflexivity | constructor].
Qed.

Theorem C18_balanced :
  forall s tls,
    aligned (run_fuel s) s state0 = true -> run_tls s = Some tls ->
    cnt is_indent (map top tls) = cnt is_dedent (map top tls).
Proof. exact balanced. Qed.

Theorem C18_single_eof :
  forall s tls, run_tls s = Some tls -> cnt is_eof (map top tls) = 1.
Proof. exact single_eof. Qed.

Theorem C18_tokenize_is_run :
  forall s ts, tokenize s = LexOk ts <-> exists tls, run_tls s = Some tls /\ ts = flatten tls.
Proof. exact tokenize_run. Qed.

(** Non-vacuity: a nested program is accepted, clean and aligned *)
Definition sample : str :=
  s "def f(x: Int) -> Int =>
    if x >= 10 then
        return ""a{x + 1}b"" # c
    x << 2

print(f(1.5), 2E3, 1..3)
".
Example sample_clean : clean (run_fuel sample) sample = true.
Proof. vm_compute. reflexivity. Qed.
Example sample_aligned : aligned (run_fuel sample) sample state0 = true.
Proof. vm_compute. reflexivity. Qed.
Example sample_accepted : exists tls, run_tls sample = Some tls /\ (List.length tls > 40)%nat.
Proof. eexists. split; [vm_compute; reflexivity | vm_compute; repeat constructor]. Qed.

Definition tops_of (s : str) : list lex :=
  match run_tls s with Some tls => map top tls | None => [] end.

(** D18: indentation that is not a multiple of four unbalances the stream. *)
Theorem C18_balanced_refuted :
  exists s, cnt is_indent (tops_of s) <> cnt is_dedent (tops_of s).
Proof. exists (s "a
    b
  c
"). vm_compute. discriminate. Qed.

(** D27: a string containing a line break gets an end column that is not a column of
    its last line (here column 15 of a line of 2 characters). *)
Theorem C18_multiline_refuted :
  exists src l, In l (tops_of src) /\ ltok l = MStr (s "x
y") /\ col (lend l) = 15.
Proof.
  exists (s "def a := ""x
y""
"). eexists. split; [|split].
  - vm_compute. do 3 right. left. reflexivity.
  - reflexivity.
  - reflexivity.
Qed.

(** D28: a doc-string's recorded width is that of [##doc], not of its source text. *)
Theorem C18_docstring_refuted :
  exists src l, In l (tops_of src) /\ ltok l = MDocStr (s "doc")
                /\ col (lend l) - col (lstart l) = 5.
Proof.
  exists (s """""""doc"""""""). eexists. split; [|split].
  - vm_compute. left. reflexivity.
  - reflexivity.
  - reflexivity.
Qed.

(** D24: Indent tokens are stamped with the position of the first token of their line. *)
Theorem C18_indent_stamped_refuted :
  exists src l1 l2, In l1 (tops_of src) /\ In l2 (tops_of src) /\ ltok l1 = MIndent
                    /\ ltok l2 = MId (s "x") /\ lstart l1 = lstart l2.
Proof.
  exists (s "if c then
    x
"). eexists. eexists. split; [|split; [|split; [|split]]].
  - vm_compute. do 4 right. left. reflexivity.
  - vm_compute. do 5 right. left. reflexivity.
  - reflexivity.
  - reflexivity.
  - reflexivity.
Qed.

Check C18_scan_exact :
  forall c r t rest, scan c r = STok t rest -> t <> MNL -> spell t ++ rest = c :: r.
Check C18_positions_track :
  forall s tls, clean (run_fuel s) s = true -> run_tls s = Some tls ->
    Forall (fun l => synthetic (ltok l) = true \/ is_docstr (ltok l) = true \/ tok_ok s l) (map top tls).
Check C18_balanced :
  forall s tls, aligned (run_fuel s) s state0 = true -> run_tls s = Some tls ->
    cnt is_indent (map top tls) = cnt is_dedent (map top tls).
Check C18_single_eof : forall s tls, run_tls s = Some tls -> cnt is_eof (map top tls) = 1.
Print Assumptions C18_scan_exact.
Print Assumptions C18_positions_track.
Print Assumptions C18_balanced.
Print Assumptions C18_single_eof.
