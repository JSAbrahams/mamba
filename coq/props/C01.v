(** * C01 - accepted programs keep their meaning when run as the emitted Python

    Full statement (NOT proved as a whole; kept visible):

      [C01_statement]: for every typed AST [a] of the executable core language and both
      settings of annotate, if [gen ann a = Some c] then, for sufficient fuel,
      [run_py fuel c = run_mamba fuel a] (printed lines and class of the uncaught
      exception), whenever the reference semantics is defined on [a].

    It does not hold of the faithful model: [C01_question_refuted] is a closed program on which the
    two runs differ at fuel 50 (finding D70), [C01_inclusive_negative_step_refuted] a range on which the
    emitted and the documented elements differ (D71); no theorem states the negation of [C01_statement].
    What is proved for all inputs (partial results, each over the whole domain it names):
    - [C01_implicit_return_partial]: for every statement tree whose tail positions hold
      expressions / return / raise, and every expression semantics, executing
      [append_ret body] returns exactly the value the body has as an expression;
    - [C01_assign_in_branches_partial]: likewise [append_assign target body] binds exactly
      that value to the target (used for [def x := if/match/handle ...]);
    - [C01_operator_table]: every strict operator, [and]/[or] and the augmented assignments are
      mapped to the Python operator with the same meaning (the unary operators:
      [MEvalProps.unary_operator_table]);
    - [C01_range_positive_step]: the emitted range holds exactly the documented elements
      when the step is positive, inclusive and exclusive;
    - [C01_pure_expressions_partial]: the whole pipeline [conv] + evaluation for every pure
      expression tree (a full simulation on that fragment); [C01_pure_expressions_convert]: every
      such tree does convert;
    - [C01_simple_statements_partial]: the same for definitions, assignments, [pass], blocks and
      [if] in statement position over pure expressions, environments included.
    Missing for the full statement: the simulation between [MEval.mev] and [PyEval.cexpr]
    through [Convert.conv] for whole programs (function calls, environments, fuel); the
    direct oracle (reference semantics vs python3 on the emitted text) explores it.
    Classes (objects, constructors with parent calls, fields, methods, user exception classes)
    are interpreted by both evaluators; no theorem about the class desugaring is proved,
    [sample_class_program_agrees] and [passed_on_argument_is_outside] run class programs through both. *)
From Coq Require Import List String Bool ZArith.
From MambaModel Require Import model.Core model.SemDom model.Convert model.PySem model.PyEval model.MEval.
From MambaModel Require Import proofs.PySemProps proofs.MEvalProps proofs.ExprSim proofs.StmtSim.
Import ListNotations.

Definition C01_statement : Prop :=
  forall ann a c fuel out st,
    gen ann a = Some c -> run_mamba fuel a = (out, st) -> st <> Unsupported -> st <> Fuel ->
    exists fuel', run_py fuel' c = (out, st).

Theorem C01_implicit_return_partial :
  forall (value env exn : Type) eeval assign augment truthy vnone as_exn iter pmatch catches bind_exn define,
    (forall e, eeval None_ e = (inl vnone, e)) ->
    forall f c e,
      ret_ok c = true ->
      fres_o value env exn vnone
        (exec value env exn eeval assign augment truthy vnone as_exn iter pmatch catches bind_exn define f (append_ret c) e)
      = fres_v value env exn vnone
          (vexec value env exn eeval assign augment truthy vnone as_exn iter pmatch catches bind_exn define f c e).
Proof. exact ret_correct. Qed.

Theorem C01_assign_in_branches_partial :
  forall (value env exn : Type) eeval assign augment truthy vnone as_exn iter pmatch catches bind_exn define,
    forall f t n c i e r,
      assign_ok c = true ->
      vexec value env exn eeval assign augment truthy vnone as_exn iter pmatch catches bind_exn define f c e = r ->
      r <> VFuel value env exn ->
      exec value env exn eeval assign augment truthy vnone as_exn iter pmatch catches bind_exn define f
        (fst (append_assign t n c i)) e
      = assign_of value env exn assign t r.
Proof. intros. subst r. apply assign_correct; assumption. Qed.

Theorem C01_operator_table :
  (forall o so, nbin_sop o = Some so ->
     exists c, (forall l r, bin_core o l r = Bin c l r) /\ cbin_sop c = Some so)
  /\ ((forall l r, bin_core SAnd l r = Bin CbAnd l r) /\ (forall l r, bin_core SOr l r = Bin CbOr l r))
  /\ (forall o so, nodeop_sop o = Some so -> exists c, core_op o = Some c /\ coreop_sop c = Some so).
Proof. exact (conj strict_operator_table (conj logic_operator_table augmented_assignment_table)). Qed.

Theorem C01_range_positive_step :
  forall a b s x, (0 < s)%Z ->
    (In x (range_list a (range_end b s true) s) <-> exists i, (0 <= i /\ x = a + i * s /\ x <= b)%Z)
    /\ (In x (range_list a (range_end b s false) s) <-> exists i, (0 <= i /\ x = a + i * s /\ x < b)%Z).
Proof.
  intros a b s x H. split; [apply inclusive_range_positive_step; exact H|].
  rewrite exclusive_end. apply range_positive_step_elements; exact H.
Qed.

Theorem C01_question_refuted :
  exists a c, gen false a = Some c /\ run_mamba 50 a <> run_py 50 c.
Proof. exists question_program. exact question_refuted. Qed.

Theorem C01_inclusive_negative_step_refuted :
  exists a b s, (s < 0)%Z /\ range_list a (b + 1) s <> range_list a (range_end b s true) s.
Proof. exact inclusive_end_negative_step_refuted. Qed.

(** Non-vacuity: a function body with nested branches meets [ret_ok] and [assign_ok], and a
    whole program runs identically through both semantics. *)
Definition sample_body : core :=
  Block [VarDef (Id "y") None (Some (Int "1"));
         IfElse (Bin CbGe (Id "x") (Int "1"))
                (Block [FunctionCall (Id "print") [Id "x"]; Bin CbMul (Id "x") (Int "2")])
                (Match (Id "x") [Case (Int "0") (Int "10"); Case UnderScore (Un CuRaise (Id "e"))])].
Example sample_body_ok : ret_ok sample_body = true /\ assign_ok sample_body = true.
Proof. split; reflexivity. Qed.

Definition int_ty : nm := NM [TN false "Int" []].
Definition sample_program : ast :=
  A None (NBlock [
    A None (NFunDef (A None (NId "f")) [A None (NFunArg false (A (Some int_ty) (NId "x")) (Some int_ty) None)]
              (Some int_ty)
              (Some (A None (NBlock [
                 A None (NIfElse (A None (NBin SGe (A None (NId "x")) (A None (NInt "1"))))
                           (A None (NBlock [A None (NBin SMul (A None (NId "x")) (A None (NInt "2")))]))
                           (Some (A None (NBlock [A None (NInt "7")]))))]))));
    A None (NFor (A None (NId "i")) (A None (NRange (A None (NInt "0")) (A None (NInt "4")) true (Some (A None (NInt "2")))))
              (A None (NCall "print" [] [A None (NCall "f" [] [A None (NId "i")])])))]).
Example sample_program_agrees :
  exists c, gen false sample_program = Some c
            /\ run_mamba 60 sample_program = (["7"; "4"; "8"]%string, Done)
            /\ run_py 60 c = (["7"; "4"; "8"]%string, Done).
Proof. eexists. split; [vm_compute; reflexivity|]. split; vm_compute; reflexivity. Qed.

(** a class with a body field and a method, a child passing an argument on to its parent, a field
    update, and a user exception class raised and handled through [Exception]: the reference
    semantics (constructor arguments not passed on become fields) and the model of Python on the
    desugared constructor agree *)
Local Open Scope string_scope.
Definition str_ty : nm := NM [TN false "Str" []].
Definition sample_class_program : ast :=
  let id x := A None (NId x) in
  let prop o p := A None (NProp o p) in
  A None (NBlock [
    A None (NClass "P" [] [A None (NVarDef (id "x") (Some int_ty) None)] []
      (Some (A None (NBlock [
         A None (NVarDef (id "z") (Some int_ty) (Some (A None (NInt "5"))));
         A None (NFunDef (id "get") [A None (NFunArg false (id "self") None None)] (Some int_ty)
                   (Some (A None (NBin SAdd (prop (id "self") (id "x")) (prop (id "self") (id "z"))))))]))));
    A None (NClass "Q" [] [A None (NVarDef (id "a") (Some int_ty) None); A None (NVarDef (id "b") (Some int_ty) None)]
      [A None (NParent "P" [] [id "a"])] None);
    A None (NClass "E" [] [A None (NVarDef (id "m") (Some str_ty) None)]
      [A None (NParent "Exception" [] [id "m"])] None);
    A None (NVarDef (id "o") None (Some (A None (NCall "Q" [] [A None (NInt "3"); A None (NInt "4")]))));
    A None (NCall "print" [] [prop (id "o") (A None (NCall "get" [] []))]);
    A None (NReassign (prop (id "o") (id "x")) (A None (NInt "7")) NAssign);
    A None (NCall "print" [] [prop (id "o") (id "x"); prop (id "o") (id "b")]);
    A None (NHandle (A None (NRaise (A None (NCall "E" [] [A None (NStr "boom" false)]))))
      [A None (NCase (A None (NExprType (id "err") (Some (NM [TN false "Exception" []]))))
                (A None (NCall "print" [] [id "err"])))])]).
Example sample_class_program_agrees :
  exists c, gen false sample_class_program = Some c
            /\ run_mamba 60 sample_class_program = (["8"; "7 4"; "boom"]%string, Done)
            /\ run_py 60 c = (["8"; "7 4"; "boom"]%string, Done).
Proof. eexists. split; [vm_compute; reflexivity|]. split; vm_compute; reflexivity. Qed.

(** an argument passed on to the parent is not a field under its own name: reading [o.a] has no
    meaning in the reference semantics, and the emitted Python raises AttributeError *)
Definition passed_on_program : ast :=
  let id x := A None (NId x) in
  A None (NBlock [
    A None (NClass "P" [] [A None (NVarDef (id "x") (Some int_ty) None)] [] None);
    A None (NClass "Q" [] [A None (NVarDef (id "a") (Some int_ty) None)] [A None (NParent "P" [] [id "a"])] None);
    A None (NVarDef (id "o") None (Some (A None (NCall "Q" [] [A None (NInt "3")]))));
    A None (NCall "print" [] [A None (NProp (id "o") (id "a"))])]).
Example passed_on_argument_is_outside :
  exists c, gen false passed_on_program = Some c
            /\ run_mamba 60 passed_on_program = ([], Unsupported)
            /\ run_py 60 c = ([], Uncaught "AttributeError").
Proof. eexists. split; [vm_compute; reflexivity|]. split; vm_compute; reflexivity. Qed.

(** [pure] excludes calls, [?], sqrt and inclusive ranges with a non-literal or non-positive step (D71); [Rel] claims
    nothing where the reference semantics is undefined *)
Theorem C01_pure_expressions_partial :
  forall a st i c i',
    pure a = true -> plain st -> conv a st i = Some (c, i') ->
    i' = i /\ forall f g em ep, 2 * f <= g -> env_rel em ep -> Rel em ep (mev f a em) (cexpr g c ep).
Proof. exact pure_expr_correct. Qed.

Theorem C01_pure_expressions_convert :
  forall a st i, pure a = true -> plain st -> exists c, conv a st i = Some (c, i).
Proof. exact pure_expr_converts. Qed.

(** Loops, calls, returns, tuple targets, fields, function and class definitions are outside this theorem; of these
    the theorems above cover only the rewriting of tail positions, the rest is left to the direct oracle. *)
Theorem C01_simple_statements_partial :
  forall a st i c i',
    simple a = true -> plain_stmt st -> conv a st i = Some (c, i') ->
    forall f fs fe em ep, f <= fs -> 2 * f <= fe -> srel em ep ->
      SRel (mev f a em) (pexec (cexpr fe) fs c ep).
Proof. exact simple_stmt_correct. Qed.
Check C01_simple_statements_partial :
  forall a st i c i',
    simple a = true -> plain_stmt st -> conv a st i = Some (c, i') ->
    forall f fs fe em ep, f <= fs -> 2 * f <= fe -> srel em ep ->
      SRel (mev f a em) (pexec (cexpr fe) fs c ep).

Print Assumptions C01_simple_statements_partial.
Print Assumptions C01_pure_expressions_partial.
Print Assumptions C01_pure_expressions_convert.
Print Assumptions C01_implicit_return_partial.
Print Assumptions C01_assign_in_branches_partial.
Print Assumptions C01_operator_table.
Print Assumptions C01_range_positive_step.
Print Assumptions C01_question_refuted.
Print Assumptions C01_inclusive_negative_step_refuted.
