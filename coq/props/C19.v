(** * C19 - diagnostics are well-formed and point into the offending file and line

    The theorems are about [model/Diag.v], the executable model of [format_err], [format_location],
    [Position::get_width] and the [Display] impls of [TypeErr], [ParseErr], [UnimplementedErr] and
    [LexErr], with the [usize]/[i32] arithmetic of a debug build written out ([Pan] = the Rust code
    panics).  They quantify over every message, path, source text, cause list and position.

    What the property says of one diagnostic and where it is settled:
    - rendering never fails ............ [C19_render_total] on well-positioned diagnostics; FALSE in general:
                                         [C19_render_total_refuted], [C19_union_invisible_panics]
    - names its file and position ...... [C19_header_names_path_and_position], [C19_decimal_roundtrip]
    - quoted line is verbatim .......... [C19_quoted_line_verbatim]; FALSE beyond line 2^31:
                                         [C19_quoted_line_wraps_refuted]; an empty line is shown as
                                         "<unknown>": [C19_empty_line_quoted_unknown]
    - caret under the column ........... [C19_caret_under_column]; FALSE from line 10000 on:
                                         [C19_caret_misaligned_refuted]
    Not provable here (no model of parser and checker): that every rejection carries a diagnostic, that
    positions produced by the pipeline are inside the file, and fault localisation.  Those clauses are
    judged on the real pipeline by the end-to-end oracle of lib/vlib/c19.py. *)
From Coq Require Import String Ascii List ZArith Lia.
Import ListNotations.
Local Open Scope string_scope.
Local Open Scope Z_scope.
From MambaModel Require Import gen.DiagConsts model.Diag proofs.DiagProps.

(** The renderer equals its closed-form specification [spec_err] (header, excerpt rows quoted through
    [nth_line], caret row, cause lines) on every well-positioned diagnostic. *)
Theorem C19_render_spec :
  forall msg path pos source cs,
    well_positioned pos source cs ->
    format_err msg path pos source cs = Val (spec_err msg path pos source cs).
Proof. exact format_err_spec. Qed.

(** Rendering never fails -- for TypeErr, ParseErr and UnimplementedErr -- when the error's position and
    the position of its first cause are invisible or in range (column >= 1 at indentation 0, all numbers
    below 2^31 - 2, row no longer than the model's allocation cap) and the source is a Rust string; for ParseErr,
    additionally fewer than 2^31 causes, and the cause meant is the first of the shown ones ([spec_parse_causes]). *)
Theorem C19_render_total :
  (forall e, well_positioned (te_pos e) (te_source e) (te_causes e) ->
             exists text, render_type e = Rendered text)
  /\ (forall e, Z.of_nat (List.length (pe_causes e)) < two31 ->
                well_positioned (Some (pe_pos e)) (pe_source e) (spec_parse_causes (pe_causes e)) ->
                exists text, render_parse e = Rendered text)
  /\ (forall e, well_positioned (Some (ge_pos e)) (ge_source e) [] ->
                exists text, render_gen e = Rendered text).
Proof. exact render_total. Qed.

(** It does fail outside that class: a TypeErr whose position is the union of the invisible
    position with (1,1)-(1,5) panics although every field is a usize and the source is attached. *)
Theorem C19_render_total_refuted :
  exists e, (forall p, te_pos e = Some p ->
               is_usize (line (start p)) /\ is_usize (col (start p)) /\
               is_usize (line (end_ p)) /\ is_usize (col (end_ p)))
            /\ source_ok (te_source e) /\ render_type e = Panic.
Proof.
  exists (TypeErr (Some (union invisible (Position (Caret 1 1) (Caret 1 5)))) "m" (Some "src/prog.mamba")
                  (Some ("def a := 1" ++ NL)) []).
  split; [| split].
  - intros p H. injection H as <-. unfold is_usize, usize_max. cbn. lia.
  - cbn. unfold src_len_ok, isize_max. cbn. lia.
  - vm_compute. reflexivity.
Qed.

(** Every position obtained as [Position::union] of the invisible position with a visible one makes
    [format_location] panic at indentation 0, whatever the message and source. *)
Theorem C19_union_invisible_panics :
  forall q msg source,
    0 <= line (start q) -> 0 <= col (start q) -> 0 <= line (end_ q) -> 0 <= col (end_ q) ->
    pos_eqb q invisible = false -> pos_eqb (union invisible q) invisible = false ->
    source_ok source ->
    format_location 0 msg (union invisible q) source = Pan.
Proof.
  intros q msg source H1 H2 H3 H4 Hq Hu Hok.
  apply column_zero_panics; try assumption.
  - unfold union, invisible. cbn [start col]. lia.
  - unfold union, invisible, small. cbn [start line]. lia.
Qed.

(** The text starts with the message, the arrow, the path ("<unknown>" when absent, one trailing '/'
    removed) and the decimal line and column of the position's start. *)
Theorem C19_header_names_path_and_position :
  forall msg path p source cs s,
    format_err msg path (Some p) source cs = Val s ->
    exists rest,
      s = msg ++ NL ++ " " ++ RIGHT_ARROW ++ " " ++ path_text path ++ ":"
          ++ dec (line (start p)) ++ ":" ++ dec (col (start p)) ++ NL ++ rest.
Proof.
  intros msg path p source cs s H. unfold format_err in H.
  destruct (format_location 0 None p source) as [loc | |]; cbn [bind] in H; try discriminate.
  destruct (format_causes true (Some p) source cs) as [tail | |]; cbn [bind] in H; try discriminate.
  apply Val_inj in H. subst s. exists (loc ++ tail). unfold header.
  repeat rewrite app_assoc_s. reflexivity.
Qed.

Theorem C19_decimal_roundtrip : forall n, is_usize n -> undec (dec n) = n.
Proof.
  intros n [H0 H1]. unfold dec, undec.
  destruct (dec_go_spec 20 20 n EmptyString) as (ds & E & V & _); [lia | |].
  - split; [assumption |]. unfold usize_max in H1. change (10 ^ Z.of_nat 20) with 100000000000000000000. lia.
  - now rewrite E, app_empty_r.
Qed.

(** When the line numbered [line (start p)] exists in the source ([nth_line], 1-based over [lines]) and is
    not empty, the excerpt shows exactly: number, " | ", that line, newline, then the caret row; the only
    other excerpt row is the previous line, quoted the same way. *)
Theorem C19_quoted_line_verbatim :
  forall offset msg p src l,
    (offset = 0 \/ offset = 1) -> pos_eqb p invisible = false -> in_range offset p -> src_len_ok src ->
    nth_line src (line (start p)) = Some l -> l <> EmptyString ->
    exists before,
      format_location offset msg p (Some src)
      = Val (hook_line (rep " " (Z.to_nat (OFFSET_WIDTH * offset))) msg ++ before
             ++ (rep " " (Z.to_nat (OFFSET_WIDTH * offset)) ++ pad_left 4 (dec (line (start p))) ++ SEP ++ l ++ NL)
             ++ spec_caret_row offset p ++ NL)
      /\ (before = EmptyString \/
          exists l0, nth_line src (line (start p) - 1) = Some l0 /\ l0 <> EmptyString /\
                     before = rep " " (Z.to_nat (OFFSET_WIDTH * offset))
                              ++ pad_left 4 (dec (line (start p) - 1)) ++ SEP ++ l0 ++ NL).
Proof.
  intros offset msg p src l Ho Hi Hr Hok Hl Hne.
  exists (spec_row (rep " " (Z.to_nat (OFFSET_WIDTH * offset))) (line (start p) - 1) src EmptyString).
  split.
  - rewrite format_location_spec by assumption. unfold spec_location, spec_excerpt. cbn [fst snd].
    unfold spec_row at 2. rewrite Hl. destruct l; [contradiction |]. reflexivity.
  - unfold spec_row. destruct (nth_line src (line (start p) - 1)) as [l0 |]; [| now left].
    destruct l0; [now left |]. right. eexists. repeat split. discriminate.
Qed.

(** The quoted line is looked up through [as i32]; the label is not.  At line 2^32 + 1 the row is
    labelled 4294967297 and shows line 1. *)
Theorem C19_quoted_line_wraps_refuted :
  exists p src s l1,
    is_usize (line (start p)) /\ nth_line src (line (start p)) = None /\ nth_line src 1 = Some l1 /\
    format_location 0 None p (Some src) = Val s /\
    s = pad_left 4 (dec (line (start p))) ++ SEP ++ l1 ++ NL ++ spec_caret_row 0 p ++ NL.
Proof.
  exists (Position (Caret 4294967297 1) (Caret 4294967297 2)), ("first" ++ NL ++ "second" ++ NL).
  eexists. exists "first".
  (* [split] closes [nth_line src 4294967297 = None] by lazy conversion; evaluating it eagerly would build
     the unary index *)
  repeat split; try (vm_compute; reflexivity); unfold is_usize, usize_max; cbn; lia.
Qed.

(** An existing but empty line is not quoted at all: the row reads "<unknown>". *)
Theorem C19_empty_line_quoted_unknown :
  exists p src,
    in_range 0 p /\ pos_eqb p invisible = false /\ nth_line src (line (start p)) = Some EmptyString /\
    format_location 0 None p (Some src)
    = Val (quote_row EmptyString 1 "a" ++ UNKNOWN ++ NL ++ spec_caret_row 0 p ++ NL).
Proof.
  exists (Position (Caret 2 1) (Caret 2 1)), ("a" ++ NL ++ NL ++ "b" ++ NL).
  split; [| split; [| split]]; try (vm_compute; reflexivity).
  unfold in_range, small, alloc_cap. cbn. pose proof consts_bounds. lia.
Qed.

(** Below line 10000 the first caret stands under byte [c] of the quoted line: the row prefix (indentation,
    number padded to four, " | ") plus [c - 1] is as long as the caret row's blank prefix. *)
Theorem C19_caret_under_column :
  forall ind n c, 0 <= n < 10000 -> 1 <= c ->
    (String.length (row_prefix ind n) + Z.to_nat (c - 1) = String.length (caret_prefix ind c))%nat.
Proof.
  intros ind n c Hn Hc. unfold row_prefix, caret_prefix.
  rewrite !length_app, !length_rep, length_pad_left by (now apply dec_len_4).
  cbn [String.length SEP GUTTER]. lia.
Qed.

(** From line 10000 on the number is wider than the four columns reserved for it. *)
Theorem C19_caret_misaligned_refuted :
  exists n c, 1 <= c /\
    (String.length (row_prefix 0 n) + Z.to_nat (c - 1))%nat <> String.length (caret_prefix 0 c).
Proof. exists 10000, 3. split; [lia |]. vm_compute. discriminate. Qed.

(** A ParseErr prints no cause unless it has at least two, and then only the first. *)
Theorem C19_parse_shows_at_most_one_cause :
  forall cs, Z.of_nat (List.length cs) < two31 ->
    exists shown, parse_shown_causes cs = Val shown /\
                  (shown = [] \/ exists c r, cs = c :: r /\ shown = [c] /\ r <> []).
Proof.
  intros cs H. exists (spec_parse_causes cs). split; [now apply parse_shown_causes_spec |].
  unfold spec_parse_causes. change (Z.to_nat SYNTAX_ERR_MAX_DEPTH) with 1%nat.
  destruct cs as [| c [| c2 r]]; [now left | now left |].
  right. exists c, (c2 :: r). split; [reflexivity | split; [| discriminate]].
  cbn [List.length Nat.sub]. destruct (List.length r); reflexivity.
Qed.

(** LexErr's own Display (dead code in the pipeline) never panics on a line-0 position and quotes the line
    with the error's number. *)
Theorem C19_lex_render_spec :
  forall e,
    0 <= line (le_pos e) -> 0 <= col (le_pos e) <= alloc_cap ->
    match le_width e with Some w => 0 <= w <= alloc_cap | None => True end ->
    render_lex e = Rendered (spec_lex e).
Proof.
  intros e Hl Hc Hw. unfold render_lex, format_lex, spec_lex.
  rewrite lex_source_line_spec by assumption. cbn [bind].
  rewrite byte_vec_ok by lia. cbn [bind].
  rewrite byte_vec_ok by (destruct (le_width e); unfold alloc_cap in *; lia). cbn [bind].
  reflexivity.
Qed.

(** What "the line with that number" means: [lines] is [str::lines]. *)
Theorem C19_lines_characterisation :
  lines EmptyString = []
  /\ (forall l, no_nl l = true -> l <> EmptyString -> lines l = [l])
  /\ (forall l rest, no_nl l = true -> lines (l ++ String nl rest) = strip_cr l :: lines rest).
Proof.
  split; [reflexivity | split].
  - intros l H Hne. unfold lines. now rewrite split_nl_last.
  - intros l rest H. unfold lines. now rewrite split_nl_cons.
Qed.

(** Non-vacuity: an ordinary diagnostic with a cause satisfies the hypotheses (its rendering:
    [DiagProps.example_rendering]). *)
Example C19_example_well_positioned :
  well_positioned (te_pos example_err) (te_source example_err) (te_causes example_err).
Proof. exact example_well_positioned. Qed.

Example C19_example_in_range :
  in_range 0 (Position (Caret 2 7) (Caret 2 9))
  /\ nth_line ("def a := 1" ++ NL ++ "print(zz)" ++ NL) 2 = Some "print(zz)".
Proof. exact example_in_range. Qed.

(* each [Check] pins the statement of the theorem it names *)
Check C19_render_spec :
  forall msg path pos source cs,
    well_positioned pos source cs ->
    format_err msg path pos source cs = Val (spec_err msg path pos source cs).
Check C19_render_total :
  (forall e, well_positioned (te_pos e) (te_source e) (te_causes e) ->
             exists text, render_type e = Rendered text)
  /\ (forall e, Z.of_nat (List.length (pe_causes e)) < two31 ->
                well_positioned (Some (pe_pos e)) (pe_source e) (spec_parse_causes (pe_causes e)) ->
                exists text, render_parse e = Rendered text)
  /\ (forall e, well_positioned (Some (ge_pos e)) (ge_source e) [] ->
                exists text, render_gen e = Rendered text).
Check C19_quoted_line_verbatim :
  forall offset msg p src l,
    (offset = 0 \/ offset = 1) -> pos_eqb p invisible = false -> in_range offset p -> src_len_ok src ->
    nth_line src (line (start p)) = Some l -> l <> EmptyString ->
    exists before,
      format_location offset msg p (Some src)
      = Val (hook_line (rep " " (Z.to_nat (OFFSET_WIDTH * offset))) msg ++ before
             ++ (rep " " (Z.to_nat (OFFSET_WIDTH * offset)) ++ pad_left 4 (dec (line (start p))) ++ SEP ++ l ++ NL)
             ++ spec_caret_row offset p ++ NL)
      /\ (before = EmptyString \/
          exists l0, nth_line src (line (start p) - 1) = Some l0 /\ l0 <> EmptyString /\
                     before = rep " " (Z.to_nat (OFFSET_WIDTH * offset))
                              ++ pad_left 4 (dec (line (start p) - 1)) ++ SEP ++ l0 ++ NL).
Check C19_header_names_path_and_position :
  forall msg path p source cs s,
    format_err msg path (Some p) source cs = Val s ->
    exists rest,
      s = msg ++ NL ++ " " ++ RIGHT_ARROW ++ " " ++ path_text path ++ ":"
          ++ dec (line (start p)) ++ ":" ++ dec (col (start p)) ++ NL ++ rest.
Check C19_caret_under_column :
  forall ind n c, 0 <= n < 10000 -> 1 <= c ->
    (String.length (row_prefix ind n) + Z.to_nat (c - 1) = String.length (caret_prefix ind c))%nat.
Check C19_union_invisible_panics :
  forall q msg source,
    0 <= line (start q) -> 0 <= col (start q) -> 0 <= line (end_ q) -> 0 <= col (end_ q) ->
    pos_eqb q invisible = false -> pos_eqb (union invisible q) invisible = false ->
    source_ok source ->
    format_location 0 msg (union invisible q) source = Pan.

Print Assumptions C19_render_spec.
Print Assumptions C19_render_total.
Print Assumptions C19_render_total_refuted.
Print Assumptions C19_union_invisible_panics.
Print Assumptions C19_header_names_path_and_position.
Print Assumptions C19_decimal_roundtrip.
Print Assumptions C19_quoted_line_verbatim.
Print Assumptions C19_quoted_line_wraps_refuted.
Print Assumptions C19_empty_line_quoted_unknown.
Print Assumptions C19_caret_under_column.
Print Assumptions C19_caret_misaligned_refuted.
Print Assumptions C19_parse_shows_at_most_one_cause.
Print Assumptions C19_lex_render_spec.
Print Assumptions C19_lines_characterisation.
