From Coq Require Import List String Bool ZArith Lia.
From MambaModel Require Import model.Core model.SemDom model.Convert model.PySem model.PyEval model.MEval.
From MambaModel Require Import proofs.PySemProps.
Import ListNotations.

Lemma strict_operator_table : forall o so,
  nbin_sop o = Some so ->
  exists c, (forall l r, bin_core o l r = Bin c l r) /\ cbin_sop c = Some so.
Proof.
  intros o so H; destruct o; cbn in H; try discriminate H; injection H as <-;
    eexists; (split; [intros; reflexivity | reflexivity]).
Qed.

Lemma logic_operator_table :
  (forall l r, bin_core SAnd l r = Bin CbAnd l r) /\ (forall l r, bin_core SOr l r = Bin CbOr l r).
Proof. split; reflexivity. Qed.

Lemma unary_operator_table :
  (forall e, un_core SAddU e = Un CuAddU e) /\ (forall e, un_core SSubU e = Un CuSubU e)
  /\ (forall e, un_core SBOneCmpl e = Un CuBOneCmpl e) /\ (forall e, un_core SNot e = Un CuNot e).
Proof. repeat split; reflexivity. Qed.

Lemma augmented_assignment_table : forall o so,
  nodeop_sop o = Some so -> exists c, core_op o = Some c /\ coreop_sop c = Some so.
Proof.
  intros o so H; destruct o; cbn in H; try discriminate H; injection H as <-;
    eexists; split; reflexivity.
Qed.

(** on booleans Python's [and]/[or] (truthiness, operand returned) are Mamba's *)
Lemma and_or_on_booleans : forall b (v : value),
  (if truthy (VBool b) then v else VBool b) = (if b then v else VBool false)
  /\ (if truthy (VBool b) then VBool b else v) = (if b then VBool true else v).
Proof. intros [|] v; split; reflexivity. Qed.

Local Open Scope Z_scope.

(** the emitted end of an inclusive range is [to + 1]; the documented one is [range_end] *)
Lemma inclusive_end_positive_step : forall b s, 0 < s -> range_end b s true = b + 1.
Proof. intros b s H. unfold range_end. apply Z.ltb_lt in H. rewrite H. reflexivity. Qed.

Lemma exclusive_end : forall b s, range_end b s false = b.
Proof. reflexivity. Qed.

(** with a negative step the emitted end [to + 1] gives another list than the documented one: [5 ..= 1 .. -2]
    is 5 3 1, the emitted [range(5, 2, -2)] is 5 3 (finding D71) *)
Lemma inclusive_end_negative_step_refuted :
  exists a b s, s < 0 /\ range_list a (b + 1) s <> range_list a (range_end b s true) s.
Proof. exists 5, 1, (-2). split; [lia|]. vm_compute. discriminate. Qed.

Lemma range_len_pos : forall a b s, 0 < s -> a < b ->
  range_len a b s = (b - a + s - 1) / s.
Proof.
  intros a b s Hs Hab. unfold range_len.
  assert (H1 : (s >? 0) = true) by (apply Z.gtb_lt; lia). rewrite H1.
  assert (H2 : (a <? b) = true) by (apply Z.ltb_lt; lia). rewrite H2. reflexivity.
Qed.

Lemma range_len_pos_empty : forall a b s, 0 < s -> b <= a -> range_len a b s = 0.
Proof.
  intros a b s Hs Hab. unfold range_len.
  assert (H1 : (s >? 0) = true) by (apply Z.gtb_lt; lia). rewrite H1.
  assert (H2 : (a <? b) = false) by (apply Z.ltb_ge; lia). rewrite H2. reflexivity.
Qed.

Lemma in_range_list : forall a b s x,
  In x (range_list a b s) <-> exists i : nat, (Z.of_nat i < range_len a b s) /\ x = a + Z.of_nat i * s.
Proof.
  intros a b s x. unfold range_list. rewrite in_map_iff. split.
  - intros [i [Hx Hi]]. apply in_seq in Hi. exists i. split; lia.
  - intros [i [Hi Hx]]. exists i. split; [lia|]. apply in_seq. lia.
Qed.

Theorem range_positive_step_elements : forall a b s x, 0 < s ->
  In x (range_list a b s) <-> exists i, 0 <= i /\ x = a + i * s /\ x < b.
Proof.
  intros a b s x Hs. rewrite in_range_list. split.
  - intros [i [Hi Hx]]. exists (Z.of_nat i). split; [lia|]. split; [exact Hx|].
    destruct (Z_lt_le_dec a b) as [Hab|Hab].
    + rewrite range_len_pos in Hi by lia.
      assert (Z.of_nat i * s < b - a); [|lia].
      pose proof (Z.div_mod (b - a + s - 1) s ltac:(lia)) as Hd.
      pose proof (Z.mod_pos_bound (b - a + s - 1) s Hs) as Hm. nia.
    + rewrite range_len_pos_empty in Hi by lia. lia.
  - intros [i [Hi [Hx Hb]]]. exists (Z.to_nat i). rewrite Z2Nat.id by lia. split; [|exact Hx].
    assert (Hab : a < b) by nia.
    rewrite range_len_pos by lia.
    assert (i + 1 <= (b - a + s - 1) / s) by (apply Z.div_le_lower_bound; nia). lia.
Qed.

Corollary inclusive_range_positive_step : forall a b s x, 0 < s ->
  In x (range_list a (range_end b s true) s) <-> exists i, 0 <= i /\ x = a + i * s /\ x <= b.
Proof.
  intros a b s x Hs. rewrite inclusive_end_positive_step by exact Hs.
  rewrite range_positive_step_elements by exact Hs.
  split; intros [i [H1 [H2 H3]]]; exists i; repeat split; try assumption; lia.
Qed.

(** [x ? d] is desugared to [x or d], which differs when [x] is defined but falsy (finding D70) *)
Definition question_program : ast :=
  A None (NBlock [A None (NCall "print" [] [A None (NBin SQuestion (A None (NInt "0")) (A None (NInt "5")))])]).

Lemma question_refuted :
  exists c, gen false question_program = Some c /\ run_mamba 50 question_program <> run_py 50 c.
Proof. eexists. split; [vm_compute; reflexivity|]. vm_compute. discriminate. Qed.

(** and agrees when the left operand is undefined (a test, not the general claim) *)
Definition question_none_program : ast :=
  A None (NBlock [A None (NCall "print" [] [A None (NBin SQuestion (A None NUndefined) (A None (NInt "5")))])]).
Example question_on_none :
  exists c, gen false question_none_program = Some c /\ run_mamba 50 question_none_program = run_py 50 c.
Proof. eexists. split; [vm_compute; reflexivity | vm_compute; reflexivity]. Qed.

Notation pvexec ev :=
  (PySem.vexec value penv value ev cassign (caugment ev) truthy VNone as_exn iter cpmatch ccatches cassign cdefine).

Lemma cexpr_none : forall f e, cexpr (S f) None_ e = (inl VNone, e).
Proof. reflexivity. Qed.

Theorem py_implicit_return : forall k f c e,
  ret_ok c = true ->
  fres_o value penv value VNone (pexec (cexpr (S k)) f (append_ret c) e)
  = fres_v value penv value VNone (pvexec (cexpr (S k)) f c e).
Proof. intros k f c e H. apply ret_correct; [apply cexpr_none | exact H]. Qed.

Theorem py_assign_in_branches : forall k f t n c i e r,
  assign_ok c = true ->
  pvexec (cexpr (S k)) f c e = r -> r <> VFuel _ _ _ ->
  pexec (cexpr (S k)) f (fst (append_assign t n c i)) e = assign_of value penv value cassign t r.
Proof. intros k f t n c i e r Hok <-. apply assign_correct, Hok. Qed.
