(** * Totality of the modelled stages (property C03)

    The lexer cannot run out of fuel: every scanner call consumes what it was given and an
    interpolated expression is at least two characters shorter than the string it sits in, so
    fuel above the length of the input suffices at every nesting ([loop_total]).  The counting
    loop of [model/Total.v] gives the same answer with at most [length s * (1 + depth)] scanner
    calls.  The partial Rust operations of the lexer stay inside their domain.  Class lookup
    through parents never meets a class twice on an acyclic table ([acyclic_fuel_ind]). *)
From Coq Require Import List Ascii ZArith Bool Lia Arith.
From MambaModel Require Import model.LexTok gen.LexTables model.Lex proofs.LexProps model.Total.
Import ListNotations.

Local Open Scope Z_scope.

(** The argument of the Rust slice [cur_expr[0..cur_expr.len() - 1]] (modelled by
    [removelast]) whenever the step reaches that line. *)
Definition slice_site (st : sstate) (c : ascii) : option str :=
  if s_bslash st then None
  else
    let cur := if 0 <? s_depth st then s_cur st ++ [c] else s_cur st in
    let depth := if Ascii.eqb c c_lcb then s_depth st + 1
                 else if Ascii.eqb c c_rcb then s_depth st - 1 else s_depth st in
    if (depth =? 0) && negb (match cur with [] => true | _ => false end) then Some cur else None.

Definition exprs_len (es : list (Z * str)) : nat := list_sum (map (fun oe => length (snd oe)) es).

(** Invariant of the string scanner.  The [+ 1] is the opening brace of the expression being
    collected, the [+ 2] the two braces of a finished one. *)
Definition SInv (st : sstate) : Prop :=
  (0 < s_depth st -> (length (s_cur st) + 1 <= length (s_content st))%nat)
  /\ (s_depth st <= 0 -> s_cur st = [])
  /\ Forall (fun oe => (length (snd oe) + 2 <= length (s_content st))%nat) (s_exprs st)
  /\ (exprs_len (s_exprs st) + length (s_cur st) <= length (s_content st))%nat.

Definition sstate0 : sstate :=
  {| s_content := []; s_bslash := false; s_depth := 0; s_cur_off := 1; s_cur := []; s_exprs := [] |}.

Lemma SInv0 : SInv sstate0.
Proof.
  unfold SInv, sstate0; cbn. repeat split; try lia; try reflexivity. constructor.
Qed.

Lemma exprs_len_app a b : exprs_len (a ++ b) = (exprs_len a + exprs_len b)%nat.
Proof. unfold exprs_len. rewrite map_app, list_sum_app. reflexivity. Qed.

Lemma brace_ne : Ascii.eqb c_rcb c_lcb = false.
Proof. reflexivity. Qed.

(** When the slice line is reached, the collected text ends in the closing brace just read:
    [len - 1] does not underflow and the cut is on a character boundary. *)
Lemma slice_site_defined st c cur :
  SInv st -> slice_site st c = Some cur -> c = c_rcb /\ cur = s_cur st ++ [c_rcb] /\ 0 < s_depth st.
Proof.
  intros (Hpos & Hnil & _ & _) H. unfold slice_site in H.
  destruct (s_bslash st); [discriminate H|].
  destruct (0 <? s_depth st) eqn:Hd.
  - apply Z.ltb_lt in Hd.
    destruct (Ascii.eqb c c_lcb) eqn:Hl.
    + destruct (s_depth st + 1 =? 0) eqn:Hz; [apply Z.eqb_eq in Hz; lia | discriminate H].
    + destruct (Ascii.eqb c c_rcb) eqn:Hr.
      * apply Ascii.eqb_eq in Hr. subst c.
        destruct (s_depth st - 1 =? 0); [|discriminate H].
        destruct (s_cur st ++ [c_rcb]) eqn:Hc; [discriminate H|]. cbn in H. inversion H; subst.
        split; [reflexivity|]. split; [reflexivity | exact Hd].
      * destruct (s_depth st =? 0) eqn:Hz; [apply Z.eqb_eq in Hz; lia | discriminate H].
  - apply Z.ltb_ge in Hd. rewrite (Hnil Hd) in H.
    rewrite andb_false_r in H. discriminate H.
Qed.

Lemma SInv_step st c : SInv st -> SInv (sstep st c).
Proof.
  intros (Hpos & Hnil & Hall & Hsum).
  assert (Hlen : length (s_content st ++ [c]) = S (length (s_content st))).
  { rewrite app_length. cbn. lia. }
  assert (Hall' : Forall (fun oe => (length (snd oe) + 2 <= S (length (s_content st)))%nat) (s_exprs st)).
  { revert Hall. apply Forall_impl. intros a Ha. lia. }
  unfold sstep. destruct (s_bslash st).
  { unfold SInv; cbn [s_content s_depth s_cur s_exprs]. rewrite Hlen.
    repeat split; [intros H; specialize (Hpos H); lia | exact Hnil | exact Hall' | lia]. }
  destruct (0 <? s_depth st) eqn:Hd.
  - apply Z.ltb_lt in Hd. specialize (Hpos Hd).
    set (depth := if Ascii.eqb c c_lcb then s_depth st + 1
                  else if Ascii.eqb c c_rcb then s_depth st - 1 else s_depth st).
    assert (Hdep : s_depth st - 1 <= depth) by (unfold depth; destruct (Ascii.eqb c c_lcb), (Ascii.eqb c c_rcb); lia).
    destruct (depth =? 0) eqn:Hz.
    + apply Z.eqb_eq in Hz.
      destruct (s_cur st ++ [c]) eqn:Hc; [destruct (s_cur st); discriminate Hc|]. rewrite <- Hc.
      cbn [andb negb]. rewrite removelast_last.
      unfold SInv; cbn [s_content s_depth s_cur s_exprs]. rewrite Hlen, Hz.
      split; [lia|]. split; [reflexivity|].
      destruct (s_cur st) as [|x xs] eqn:Hcur.
      * split; [exact Hall'|]. cbn [length] in *. lia.
      * split.
        -- apply Forall_app. split; [exact Hall'|]. constructor; [|constructor]. cbn [snd]. lia.
        -- rewrite exprs_len_app.
           assert (He : forall (o : Z) (e : str), exprs_len [(o, e)] = length e)
             by (intros; unfold exprs_len; cbn; lia).
           rewrite He. cbn [length] in *. lia.
    + apply Z.eqb_neq in Hz. cbn [andb].
      unfold SInv; cbn [s_content s_depth s_cur s_exprs]. rewrite Hlen, app_length. cbn [length].
      split; [lia|]. split; [intros; lia|]. split; [exact Hall' | lia].
  - apply Z.ltb_ge in Hd. rewrite (Hnil Hd). cbn [negb andb]. rewrite andb_false_r.
    unfold SInv; cbn [s_content s_depth s_cur s_exprs length]. rewrite Hlen.
    rewrite (Hnil Hd) in Hsum. cbn [length] in Hsum.
    split; [lia|]. split; [reflexivity|]. split; [exact Hall' | lia].
Qed.

Lemma scan_string_inv s : forall st st' rest,
  SInv st -> scan_string st s = (st', rest) ->
  SInv st' /\ (length (s_content st') + length rest <= length (s_content st) + length s)%nat.
Proof.
  induction s as [|c r IH]; intros st st' rest Hinv H.
  - cbn in H. inversion H; subst. split; [exact Hinv | lia].
  - rewrite scan_string_unfold in H. destruct (sstop st c).
    + inversion H; subst. split; [exact Hinv | cbn [length]; lia].
    + apply IH in H; [|apply SInv_step, Hinv]. destruct H as [H1 H2]. split; [exact H1|].
      rewrite sstep_content, app_length in H2. cbn [length] in *. lia.
Qed.

Theorem scan_string_exprs_short c r content exprs rest :
  scan c r = SString content exprs rest ->
  (length content + length rest <= length r)%nat
  /\ Forall (fun oe => (length (snd oe) + 2 <= length content)%nat) exprs
  /\ (exprs_len exprs <= length content)%nat.
Proof.
  intros H. pose proof (scan_view_ok c r) as V. rewrite H in V.
  inversion V as [| | st rest0 _ Hs | | | |]; subst.
  apply scan_string_inv in Hs; [|exact SInv0].
  destruct Hs as [(_ & _ & Hall & Hsum) Hlen]. cbn [s_content ss0 length] in Hlen.
  split; [lia|]. split; [exact Hall | lia].
Qed.

Lemma op_word_nonempty w t : In (w, t) op_table -> w <> [].
Proof.
  intros H. apply op_table_entries in H as [[_ [-> | ->]] | [-> Hin]]; try discriminate.
  destruct (op_token_ok t Hin) as (_ & _ & x & w & -> & _). discriminate.
Qed.

Theorem scan_consumes c r :
  match scan c r with
  | STok _ rest | SString _ _ rest | SSpace rest => (length rest <= length r)%nat
  | SErr _ => True
  end.
Proof.
  assert (Happ : forall a b : str, r = a ++ b -> (length b <= length r)%nat).
  { intros a b ->. rewrite app_length. lia. }
  destruct (scan_view_ok c r) as [t rest Hm | cm rest _ Ht | st rest _ Hs | _ | n e fl en rest _ Hn | w rest _ Ht | e].
  - apply match_prefix_sound in Hm as (w & Hin & Heq). apply op_word_nonempty in Hin.
    destruct w as [|x w]; [contradiction|]. injection Heq as _ Hr. exact (Happ _ _ Hr).
  - apply take_while_split in Ht as [Ht _]. eapply Happ, Ht.
  - apply scan_string_inv in Hs as [_ Hs]; [|exact SInv0]. cbn [s_content ss0 length] in Hs. lia.
  - lia.
  - apply scan_number_spec in Hn as (w & Hw & _); [|reflexivity]. eapply Happ, Hw.
  - apply take_while_split in Ht as [Ht _]. eapply Happ, Ht.
  - exact I.
Qed.

Local Close Scope Z_scope.

Lemma nest_fold_total (d : str -> dres) p exprs : forall a,
  Forall (fun oe => exists x, d (snd oe) = inl x) exprs ->
  a <> inl None -> fold_left (nest_step d p) exprs a <> inl None.
Proof.
  induction exprs as [|oe es IH]; intros a Hall Ha; [exact Ha|].
  inversion Hall as [|? ? [x Hoe] Hes]; subst. cbn [fold_left]. apply IH; [exact Hes|].
  unfold nest_step. destruct a as [[ls|]|e]; [|exact Ha|discriminate].
  rewrite Hoe. destruct x; discriminate.
Qed.

Lemma step_total d c r st :
  (forall e, length e + 2 <= length r -> exists x, d e = inl x) ->
  match step d c r st with
  | OOF => False
  | Next rest _ _ => length rest <= length r
  | Halt _ => True
  end.
Proof.
  intros Hd. pose proof (scan_consumes c r) as Hc. unfold step, emit.
  destruct (scan c r) as [t rest | content exprs rest | rest | e] eqn:Hscan; [| | exact Hc | exact I].
  - destruct (is_nl t); exact Hc.
  - apply scan_string_exprs_short in Hscan as (Hlen & Hall & _).
    pose proof (nest_fold_total d (pos st) exprs (inl (Some []))) as Hf. fold (nest_all d (pos st) exprs) in Hf.
    destruct (nest_all d (pos st) exprs) as [[inn|]|err]; [exact Hc | | exact I].
    apply Hf; [|discriminate|reflexivity].
    revert Hall. apply Forall_impl. intros oe Hoe. apply Hd. unfold str in *. lia.
Qed.

Theorem loop_total fuel :
  (forall s st acc, length s < fuel -> exists x, tok_loop fuel s st acc = inl x)
  /\ (forall s, length s + 1 < fuel -> exists x, direct fuel s = inl x).
Proof.
  induction fuel as [|fuel [IHl IHd]]; [split; intros; lia|]. split.
  - intros [|c r] st acc Hlen; [rewrite tok_loop_nil; eauto|]. cbn [length] in Hlen.
    rewrite tok_loop_step.
    assert (Hs := step_total (direct fuel) c r st (fun e He => IHd e ltac:(lia))).
    destruct (step (direct fuel) c r st) as [e| |rest st' out]; [eauto | contradiction | apply IHl; lia].
  - intros s Hlen. rewrite direct_S. destruct (IHl s state0 [] ltac:(lia)) as [[[st acc]|e] ->]; eauto.
Qed.

Lemma tokenize_fuel_total f s : length s < f -> tokenize_fuel f s <> OutOfFuel.
Proof.
  intros H. unfold tokenize_fuel. destruct (proj1 (loop_total f) s state0 [] H) as [[[st acc]|[p e]] ->]; discriminate.
Qed.

Theorem lex_total : forall s, tokenize s <> OutOfFuel.
Proof. intros s. apply tokenize_fuel_total. lia. Qed.

(** More fuel never changes the verdict "not out of fuel" (so the bound is not tight by luck). *)
Corollary lex_total_any_fuel : forall s k, tokenize_fuel (S (length s) + k) s <> OutOfFuel.
Proof. intros s k. apply tokenize_fuel_total. lia. Qed.

(** the anonymous fold step of the string arm of [tok_loop_n] *)
Definition nested_step_n (fuel : nat) (st : state) :=
  fun (a : (option (list lex) + (cpos * lexerr)) * nat) (oe : Z * str) =>
    match a with
    | (inl (Some ls), k) =>
        match direct_n fuel (snd oe) with
        | (inl (inl toks), m) =>
            let off := offset_pos (pos st) (fst oe) in
            (inl (Some (ls ++ flat_map (fun x =>
               nest (mk_lex (pos_offset (lstart (top x)) off) (ltok (top x))) :: inner x) toks)),
             k + m)
        | (inl (inr e), m) => (inr e, k + m)
        | (inr _, m) => (inl None, k + m)
        end
    | other => other
    end.

Lemma nested_fold_fst fuel st exprs :
  (forall s, fst (direct_n fuel s) = direct fuel s) ->
  forall a k, fst (fold_left (nested_step_n fuel st) exprs (a, k))
              = fold_left (nest_step (direct fuel) (pos st)) exprs a.
Proof.
  intros Hd. induction exprs as [|oe es IH]; intros a k; [reflexivity|].
  cbn [fold_left].
  destruct a as [[ls|]|e]; cbn [nested_step_n nest_step]; try apply IH.
  rewrite <- (Hd (snd oe)). destruct (direct_n fuel (snd oe)) as [[[toks|e]|u] m]; cbn [fst]; apply IH.
Qed.

(* the two loops are compared by unfolding them side by side *)
Transparent tok_loop direct.
Theorem loop_n_fst fuel :
  (forall s st acc, fst (tok_loop_n fuel s st acc) = tok_loop fuel s st acc)
  /\ (forall s, fst (direct_n fuel s) = direct fuel s).
Proof.
  induction fuel as [|fuel [IHl IHd]]; [split; reflexivity|]. split.
  - intros [|c r] st acc; [reflexivity|]. cbn [tok_loop_n tok_loop].
    destruct (scan c r) as [t rest | content exprs rest | rest | e]; [| | |reflexivity].
    + destruct (state_token st t) as [st' out]. rewrite <- IHl.
      destruct (tok_loop_n fuel rest st' (acc ++ map tl0 out)) as [res n]. reflexivity.
    + destruct (is_docstring_arm content).
      * destruct (state_token st (string_tok content)) as [st' out]. rewrite <- IHl.
        destruct (tok_loop_n fuel rest st' (acc ++ map tl0 out)) as [res n]. reflexivity.
      * change (fun (a : (option (list lex) + (cpos * lexerr)) * nat) (oe : Z * str) => _)
          with (nested_step_n fuel st).
        match goal with |- _ = match ?f with _ => _ end =>
          replace f with (fst (fold_left (nested_step_n fuel st) exprs (inl (Some []), 0)))
            by apply (nested_fold_fst fuel st exprs IHd)
        end.
        destruct (fold_left (nested_step_n fuel st) exprs (inl (Some []), 0)) as [[[inn|]|e] k];
          cbn [fst]; try reflexivity.
        destruct (state_token st (string_tok content)) as [st' out]. rewrite <- IHl.
        match goal with |- context [tok_loop_n fuel rest st' ?a] =>
          destruct (tok_loop_n fuel rest st' a) as [res n] end. reflexivity.
    + rewrite <- IHl. destruct (tok_loop_n fuel rest (state_space st) acc) as [res n]. reflexivity.
  - intros s. cbn [direct_n direct]. rewrite <- IHl.
    destruct (tok_loop_n fuel s state0 []) as [[[[st acc]|e]|u] n]; reflexivity.
Qed.
Opaque tok_loop direct.

Definition ddepth (fuel : nat) (exprs : list (Z * str)) : nat :=
  fold_right (fun oe d => Nat.max (S (depth_direct fuel (snd oe))) d) 0 exprs.

Lemma ddepth_in fuel exprs oe : In oe exprs -> S (depth_direct fuel (snd oe)) <= ddepth fuel exprs.
Proof.
  induction exprs as [|x xs IH]; intros H; [destruct H|].
  cbn [ddepth fold_right]. fold (ddepth fuel xs). destruct H as [-> | H]; [lia | specialize (IH H); lia].
Qed.

Lemma nested_fold_steps fuel st D exprs :
  (forall oe, In oe exprs -> snd (direct_n fuel (snd oe)) <= length (snd oe) * D) ->
  forall a k, snd (fold_left (nested_step_n fuel st) exprs (a, k)) <= k + exprs_len exprs * D.
Proof.
  induction exprs as [|oe es IH]; intros Hall a k; [cbn; lia|].
  cbn [fold_left].
  assert (Hes : forall oe, In oe es -> snd (direct_n fuel (snd oe)) <= length (snd oe) * D)
    by (intros x Hx; apply Hall; right; exact Hx).
  assert (Hl : exprs_len (oe :: es) = length (snd oe) + exprs_len es) by reflexivity.
  rewrite Hl. pose proof (Hall oe (or_introl eq_refl)) as Hoe.
  destruct a as [[ls|]|e]; cbn [nested_step_n].
  - destruct (direct_n fuel (snd oe)) as [[[toks|e]|u] m]; cbn [snd] in Hoe;
      (eapply Nat.le_trans; [apply (IH Hes)|]); nia.
  - eapply Nat.le_trans; [apply (IH Hes)|]. nia.
  - eapply Nat.le_trans; [apply (IH Hes)|]. nia.
Qed.

Theorem loop_n_steps fuel :
  (forall s st acc, snd (tok_loop_n fuel s st acc) <= length s * (1 + depth_loop fuel s))
  /\ (forall s, snd (direct_n fuel s) <= length s * (1 + depth_direct fuel s)).
Proof.
  induction fuel as [|fuel [IHl IHd]]; [split; intros; cbn; lia|].
  assert (Hloop : forall s st acc,
             snd (tok_loop_n (S fuel) s st acc) <= length s * (1 + depth_loop (S fuel) s)).
  { intros s st acc. cbn [tok_loop_n depth_loop].
    destruct s as [|c r]; [cbn; lia|].
    pose proof (scan_consumes c r) as Hc. cbn [length].
    destruct (scan c r) as [t rest | content exprs rest | rest | e] eqn:Hscan; [| | |cbn [snd]; nia].
    - destruct (state_token st t) as [st' out].
      pose proof (IHl rest st' (acc ++ map tl0 out)) as H.
      destruct (tok_loop_n fuel rest st' (acc ++ map tl0 out)) as [res n]. cbn [snd] in *. nia.
    - apply scan_string_exprs_short in Hscan as (Hlen & Hall & Hsum).
      destruct (is_docstring_arm content).
      + destruct (state_token st (string_tok content)) as [st' out].
        pose proof (IHl rest st' (acc ++ map tl0 out)) as H.
        destruct (tok_loop_n fuel rest st' (acc ++ map tl0 out)) as [res n]. cbn [snd] in *. nia.
      + change (fun (a : (option (list lex) + (cpos * lexerr)) * nat) (oe : Z * str) => _)
          with (nested_step_n fuel st).
        fold (ddepth fuel exprs).
        set (D1 := ddepth fuel exprs). set (D2 := depth_loop fuel rest).
        assert (Hk : snd (fold_left (nested_step_n fuel st) exprs (inl (Some []), 0))
                     <= 0 + exprs_len exprs * D1).
        { apply nested_fold_steps. intros oe Hin.
          pose proof (ddepth_in fuel exprs oe Hin) as Hd. fold D1 in Hd.
          eapply Nat.le_trans; [apply IHd|]. nia. }
        destruct (fold_left (nested_step_n fuel st) exprs (inl (Some []), 0)) as [[[inn|]|e] k];
          cbn [snd] in Hk |- *; try nia.
        destruct (state_token st (string_tok content)) as [st' out].
        match goal with |- context [tok_loop_n fuel rest st' ?a] =>
          pose proof (IHl rest st' a) as H; destruct (tok_loop_n fuel rest st' a) as [res n] end.
        cbn [snd] in *. fold D2 in H.
        (* [k] nested calls for at most [length content] characters at depth [D1], [n] calls for
           the rest at depth [D2]; both depths are below their maximum *)
        assert (k <= length content * Nat.max D1 D2) by nia.
        assert (n <= length rest * (1 + Nat.max D1 D2)) by nia.
        nia.
    - pose proof (IHl rest (state_space st) acc) as H.
      destruct (tok_loop_n fuel rest (state_space st) acc) as [res n]. cbn [snd] in *. nia. }
  split; [exact Hloop|].
  intros s. cbn [direct_n depth_direct]. pose proof (IHl s state0 []) as H.
  destruct (tok_loop_n fuel s state0 []) as [[[[st acc]|e]|u] n]; exact H.
Qed.

Lemma ddepth_short fuel (n : nat) exprs :
  (forall s, 2 * depth_direct fuel s <= length s) ->
  Forall (fun oe => length (snd oe) + 2 <= n) exprs -> 2 * ddepth fuel exprs <= n.
Proof.
  intros Hd. induction 1 as [|oe es Hoe _ IH]; [cbn; lia|].
  unfold ddepth. cbn [fold_right]. fold (ddepth fuel es). specialize (Hd (snd oe)).
  unfold str in *. lia.
Qed.

(** Every nesting level costs at least the two braces: depth is at most half the length. *)
Theorem depth_half fuel :
  (forall s, 2 * depth_loop fuel s <= length s) /\ (forall s, 2 * depth_direct fuel s <= length s).
Proof.
  induction fuel as [|fuel [IHl IHd]]; [split; intros; cbn; lia|].
  split; [|intros s; cbn [depth_direct]; apply IHl].
  intros s. cbn [depth_loop]. destruct s as [|c r]; [cbn; lia|].
  pose proof (scan_consumes c r) as Hc. cbn [length].
  destruct (scan c r) as [t rest | content exprs rest | rest | e] eqn:Hscan; [| | |lia].
  - specialize (IHl rest). lia.
  - apply scan_string_exprs_short in Hscan as (Hlen & Hall & _).
    specialize (IHl rest). fold (ddepth fuel exprs).
    pose proof (ddepth_short fuel (length content) exprs IHd) as Hdd.
    unfold str in *. specialize (Hdd Hall).
    destruct (is_docstring_arm content); lia.
  - specialize (IHl rest). lia.
Qed.

Theorem lex_steps_bound : forall s, lex_steps s <= length s * (1 + lex_depth s).
Proof. intros s. apply loop_n_steps. Qed.

Theorem lex_depth_bound : forall s, 2 * lex_depth s <= length s.
Proof. intros s. apply depth_half. Qed.

Corollary lex_steps_quadratic : forall s, 2 * lex_steps s <= length s * (2 + length s).
Proof. intros s. pose proof (lex_steps_bound s). pose proof (lex_depth_bound s). nia. Qed.

(** The operations of [src/parse/lex] that can panic or abort, and where each is covered:
    - [cur_expr[0..cur_expr.len() - 1]] (tokenize.rs, string arm): [slice_site_defined];
    - [it.next().unwrap()] in the comment arm: guarded by [it.peek().is_some()] in the same loop
      condition; the model's [take_while] is total by construction;
    - no other [unwrap]/[expect] in the lexer: [tokens.last()] and [newlines.pop()] are matched;
    - [((self.cur_indent) / 4) as usize] in [flush_indents] and the two [((.. - ..) / 4) as usize]
      in [State::token] (state.rs) feed [vec![..; amount]], where a negative [i32] would become an
      enormous [usize] and abort with "capacity overflow": [token_amounts_nonneg],
      [flush_amount_nonneg];
    - [CaretPos::offset] (position.rs) computes [self.line + offset.line - 1] and
      [self.pos + offset.pos - 1] in [usize], which underflows iff both summands are 0:
      [offset_sites_defined];
    - [(line as i32 + n as i32) as usize] in [offset_line], the [i32] counters [build_cur_expr],
      [line_indent], [cur_indent] and the [usize] line/column additions: overflow needs about 2^31
      characters of input; positions are [Z] in the model, so this is a stated bound, not a theorem. *)
Local Open Scope Z_scope.

Definition st_ok (st : state) : Prop :=
  1 <= line (pos st) /\ 1 <= col (pos st) /\ 1 <= cur_indent st /\ 1 <= line_indent st.

Lemma st_ok0 : st_ok state0.
Proof. unfold st_ok, state0; cbn. lia. Qed.

Lemma count_nl_nonneg s : 0 <= count_nl s.
Proof. induction s as [|c r IH]; cbn [count_nl]; [lia | destruct (Ascii.eqb c c_nl); lia]. Qed.

Lemma st_ok_space st : st_ok st -> st_ok (state_space st).
Proof.
  unfold st_ok, state_space; cbn. intros (H1 & H2 & H3 & H4).
  destruct (token_this_line st); lia.
Qed.

Lemma st_ok_newline st : st_ok st -> st_ok (state_newline st).
Proof. unfold st_ok, state_newline; cbn. lia. Qed.

Lemma st_ok_emit st t : st_ok st -> st_ok (after_emit st t).
Proof.
  unfold st_ok. rewrite after_emit_pos. cbn [after_emit cur_indent line_indent line col].
  assert (0 <= nl_of t) by (destruct t; cbn [nl_of]; try lia; apply count_nl_nonneg).
  unfold width. lia.
Qed.

Lemma st_ok_token st t : st_ok st -> st_ok (fst (state_token st t)).
Proof.
  intros H. destruct (is_nl t) eqn:Ht.
  - apply is_nl_true in Ht. subst t. apply st_ok_newline, H.
  - rewrite (state_token_other st t (is_nl_false t Ht)). apply st_ok_emit, H.
Qed.

Lemma token_amounts_nonneg st :
  (if cur_indent st <=? line_indent st then 0 <= Z.quot (line_indent st - cur_indent st) 4
   else 0 <= Z.quot (cur_indent st - line_indent st) 4).
Proof.
  destruct (cur_indent st <=? line_indent st) eqn:H.
  - apply Z.leb_le in H. apply Z.quot_pos; lia.
  - apply Z.leb_gt in H. apply Z.quot_pos; lia.
Qed.

Theorem loop_st_ok fuel s st acc st' acc' :
  st_ok st -> tok_loop fuel s st acc = inl (inl (st', acc')) -> st_ok st'.
Proof. apply loop_inv; [exact st_ok_newline | exact st_ok_space | intros st0 t; apply st_ok_emit]. Qed.

(** [flush_indents]: the cast [(cur_indent / 4) as usize] is applied to a non-negative number,
    at top level and in every [tokenize_direct]. *)
Theorem flush_amount_nonneg fuel s st' acc' :
  tok_loop fuel s state0 [] = inl (inl (st', acc')) -> 0 <= Z.quot (cur_indent st') 4.
Proof.
  intros H. apply loop_st_ok in H; [|apply st_ok0]. destruct H as (_ & _ & H & _).
  apply Z.quot_pos; lia.
Qed.

(** Every string token is reached in a state whose position is at least 1:1, so
    [CaretPos::offset] (called with [offset = state.pos + column]) never underflows.
    [offset_sites fuel s st] checks this at every string of the run from [st]. *)
Fixpoint offset_sites (fuel : nat) (s : str) (st : state) : bool :=
  match fuel with
  | O => true
  | S fuel =>
      match s with
      | [] => true
      | c :: r =>
          match scan c r with
          | SErr _ => true
          | SSpace rest => offset_sites fuel rest (state_space st)
          | STok t rest => offset_sites fuel rest (fst (state_token st t))
          | SString content _ rest =>
              (1 <=? line (pos st)) && (1 <=? col (pos st))
              && offset_sites fuel rest (fst (state_token st (string_tok content)))
          end
      end
  end.

Theorem offset_sites_defined fuel : forall s st, st_ok st -> offset_sites fuel s st = true.
Proof.
  induction fuel as [|fuel IH]; intros s st Hok; [reflexivity|].
  cbn [offset_sites]. destruct s as [|c r]; [reflexivity|].
  destruct (scan c r) as [t rest | content exprs rest | rest | e]; [| | |reflexivity].
  - apply IH, st_ok_token, Hok.
  - destruct Hok as (H1 & H2 & H3 & H4).
    apply Z.leb_le in H1 as H1'. apply Z.leb_le in H2 as H2'. rewrite H1', H2'. cbn [andb].
    apply IH, st_ok_token. repeat split; assumption.
  - apply IH, st_ok_space, Hok.
Qed.

Local Close Scope Z_scope.

Definition parent_of (ctx : list cls) (n p : str) : Prop :=
  exists c, find_class ctx n = Some c /\ In p (c_parents c).

Inductive reach (ctx : list cls) : str -> str -> Prop :=
| reach1 n p : parent_of ctx n p -> reach ctx n p
| reachS n m p : parent_of ctx n m -> reach ctx m p -> reach ctx n p.

Definition acyclic (ctx : list cls) : Prop := forall n, ~ reach ctx n n.

Lemma reach_r ctx a b c : reach ctx a b -> parent_of ctx b c -> reach ctx a c.
Proof.
  induction 1 as [n p H | n m p H _ IH]; intros Hc.
  - eapply reachS; [exact H | apply reach1, Hc].
  - eapply reachS; [exact H | apply IH, Hc].
Qed.

Lemma find_class_some ctx n c : find_class ctx n = Some c -> In c ctx /\ c_name c = n.
Proof.
  induction ctx as [|d ctx IH]; cbn [find_class]; [discriminate|].
  destruct (str_eqb (c_name d) n) eqn:He.
  - intros H. inversion H; subst. apply str_eqb_eq in He. split; [left; reflexivity | exact He].
  - intros H. destruct (IH H) as [Hin Hn]. split; [right; exact Hin | exact Hn].
Qed.

(** Induction for walks through the parents that spend one unit of fuel per class.  On an
    acyclic table such a walk never revisits a class, so the number of classes bounds its
    depth: [visited] is the path walked so far. *)
Lemma acyclic_fuel_ind ctx (Hac : acyclic ctx) (P : nat -> str -> Prop) :
  (forall f n, find_class ctx n = None -> P f n) ->
  (forall f n c, find_class ctx n = Some c -> (forall p, In p (c_parents c) -> P f p) -> P (S f) n) ->
  forall n, P (length ctx) n.
Proof.
  intros Hnone Hstep.
  assert (H : forall fuel visited n,
             NoDup visited -> incl visited (map c_name ctx) -> (forall v, In v visited -> reach ctx v n) ->
             length ctx <= length visited + fuel -> P fuel n).
  { induction fuel as [|fuel IH]; intros visited n Hnd Hincl Hreach Hlen;
      (destruct (find_class ctx n) as [c|] eqn:Hf; [|apply Hnone, Hf]);
      destruct (find_class_some _ _ _ Hf) as [Hin Hn];
      assert (Hnd' : NoDup (n :: visited))
        by (constructor; [intros Hv; apply (Hac n), Hreach, Hv | exact Hnd]);
      assert (Hincl' : incl (n :: visited) (map c_name ctx))
        by (intros x [<- | Hx]; [rewrite <- Hn; apply in_map, Hin | apply Hincl, Hx]).
    - exfalso. pose proof (NoDup_incl_length Hnd' Hincl') as Hl.
      rewrite map_length in Hl. cbn [length] in Hl. lia.
    - apply (Hstep _ _ c Hf). intros p Hp.
      assert (Hpar : parent_of ctx n p) by (exists c; split; assumption).
      apply (IH (n :: visited)); [exact Hnd' | exact Hincl' | | cbn [length]; lia].
      intros v [<- | Hv]; [apply reach1, Hpar | eapply reach_r; [apply Hreach, Hv | exact Hpar]]. }
  intros n. apply (H (length ctx) [] n); [constructor | intros x [] | intros v [] | cbn [length]; lia].
Qed.

Definition lookup_step (fuel : nat) (ctx : list cls) :=
  fun (a : lres) (p : str) =>
    match a with
    | Found ms => match lookup fuel ctx p with Found pm => Found (inherit ms pm) | other => other end
    | other => other
    end.

Lemma lookup_unfold fuel ctx n :
  lookup fuel ctx n =
  match find_class ctx n with
  | None => Undefined n
  | Some c => match fuel with
              | O => Diverges
              | S f => fold_left (lookup_step f ctx) (c_parents c) (Found (c_members c))
              end
  end.
Proof. destruct fuel; reflexivity. Qed.

Lemma lookup_fold_total fuel ctx ps : forall a,
  (forall p, In p ps -> lookup fuel ctx p <> Diverges) -> a <> Diverges ->
  fold_left (lookup_step fuel ctx) ps a <> Diverges.
Proof.
  induction ps as [|p ps IH]; intros a Hall Ha; [exact Ha|].
  cbn [fold_left]. apply IH; [intros q Hq; apply Hall; right; exact Hq|].
  unfold lookup_step. destruct a as [ms|u|]; [|exact Ha|exact Ha].
  pose proof (Hall p (or_introl eq_refl)) as Hp.
  destruct (lookup fuel ctx p); [discriminate | discriminate | exact Hp].
Qed.

Theorem lookup_terminates :
  forall ctx, acyclic ctx -> forall n, lookup (length ctx) ctx n <> Diverges.
Proof.
  intros ctx Hac. apply (acyclic_fuel_ind ctx Hac (fun f n => lookup f ctx n <> Diverges)).
  - intros f n Hf. rewrite lookup_unfold, Hf. discriminate.
  - intros f n c Hf IH. rewrite lookup_unfold, Hf. apply lookup_fold_total; [exact IH | discriminate].
Qed.

(** [class A: A] *)
Definition nameA : str := [ascii_of_nat 65].
Definition selfish : list cls := [{| c_name := nameA; c_parents := [nameA]; c_members := [] |}].

Lemma selfish_cyclic : ~ acyclic selfish.
Proof.
  intros H. apply (H nameA). apply reach1. eexists. split; [reflexivity | left; reflexivity].
Qed.

(** The walk on [class A: A] exhausts every fuel, not only [length ctx]: the recursion itself
    has no bound.  (In /repo a table with such a class is refused when the [Context] is built,
    [check_inheritance_acyclic]; the walk itself has no guard.) *)
Lemma selfish_diverges : forall fuel, lookup fuel selfish nameA = Diverges.
Proof.
  induction fuel as [|fuel IH]; [reflexivity|].
  rewrite lookup_unfold.
  change (find_class selfish nameA)
    with (Some {| c_name := nameA; c_parents := [nameA]; c_members := [] |}).
  cbn [c_parents c_members fold_left]. unfold lookup_step. rewrite IH. reflexivity.
Qed.

Definition hp_step (fuel : nat) (ctx : list cls) (other : str) :=
  fun (a : hres) (p : str) =>
    match a with
    | HBool b =>
        match lookup (length ctx) ctx p with
        | Found _ => match has_parent fuel ctx p other with HBool b' => HBool (b || b') | o => o end
        | Undefined _ => HErr
        | Diverges => HDiverges
        end
    | o => o
    end.

Lemma has_parent_unfold fuel ctx self other :
  has_parent fuel ctx self other =
  if str_eqb self other || str_eqb other any_name then HBool true
  else match find_class ctx self with
       | None => HErr
       | Some c => match fuel with
                   | O => HDiverges
                   | S f => fold_left (hp_step f ctx other) (c_parents c) (HBool false)
                   end
       end.
Proof. destruct fuel; reflexivity. Qed.

Lemma hp_fold_total fuel ctx other ps : forall a,
  (forall p, In p ps -> lookup (length ctx) ctx p <> Diverges) ->
  (forall p, In p ps -> has_parent fuel ctx p other <> HDiverges) -> a <> HDiverges ->
  fold_left (hp_step fuel ctx other) ps a <> HDiverges.
Proof.
  induction ps as [|p ps IH]; intros a Hl Hall Ha; [exact Ha|].
  cbn [fold_left]. apply IH; [intros q Hq; apply Hl; right; exact Hq
                             | intros q Hq; apply Hall; right; exact Hq|].
  unfold hp_step. destruct a as [b| |]; [|exact Ha|exact Ha].
  pose proof (Hl p (or_introl eq_refl)) as Hlp. pose proof (Hall p (or_introl eq_refl)) as Hp.
  destruct (lookup (length ctx) ctx p); [|discriminate|contradiction].
  destruct (has_parent fuel ctx p other); [discriminate | discriminate | exact Hp].
Qed.

Theorem has_parent_terminates :
  forall ctx, acyclic ctx -> forall n other, has_parent (length ctx) ctx n other <> HDiverges.
Proof.
  intros ctx Hac n other. revert n.
  apply (acyclic_fuel_ind ctx Hac (fun f n => has_parent f ctx n other <> HDiverges)).
  - intros f n Hf. rewrite has_parent_unfold, Hf. destruct (_ || _); discriminate.
  - intros f n c Hf IH. rewrite has_parent_unfold, Hf. destruct (_ || _); [discriminate|].
    apply hp_fold_total; [intros p _; apply lookup_terminates, Hac | exact IH | discriminate].
Qed.

Lemma ranked_acyclic ctx (rank : str -> nat) :
  (forall n p, parent_of ctx n p -> rank p < rank n) -> acyclic ctx.
Proof.
  intros Hr. assert (H : forall a b, reach ctx a b -> rank b < rank a).
  { induction 1 as [n p H | n m p H _ IH]; [apply Hr, H | apply Hr in H; lia]. }
  intros n Hn. apply H in Hn. lia.
Qed.
