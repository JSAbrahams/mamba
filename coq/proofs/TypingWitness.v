(** * TypingWitness: concrete programs on which the implementation's verdict and the declarative relation differ,
      one per known class, and a conforming demo program (non-vacuity).  All over the regenerated tables. *)
From Coq Require Import List String Bool ZArith.
From MambaModel Require Import model.Types model.TypingSig gen.Stubs gen.StubSigs model.Typing proofs.TypingProps.
Import ListNotations.
Local Open Scope string_scope.

Definition chk (q : quirks) (p : program) : bool := check generated stub_sigs q p.
Definition cfm (p : program) : Prop := conforms generated stub_sigs p.
Definition impl : quirks := impl_quirks call_params_strip_nullable.

Definition prog (cs : list cdef) (fs : list fdef) (m : list stmt) : program :=
  {| p_classes := cs; p_funs := fs; p_main := m |}.
Definition cC : cdef := {| cd_name := "C"; cd_parent := None; cd_fields := [("a", tInt)]; cd_methods := [] |}.

(** class C(def a: Int) / def d: C? := None / print(d.a)            -- accepted, AttributeError at run time *)
Definition w_field : program :=
  prog [cC] [] [SDef "d" false (Some (opt (tcls "C"))) ENone; SPrint (EField (EVar "d") "a")].

(** def x: Int? := None / def y: Int := x ? None                     -- accepted, y is None *)
Definition w_quest : program :=
  prog [] [] [SDef "x" false (Some (opt tInt)) ENone; SDef "y" false (Some tInt) (EQuest (EVar "x") ENone)].

(** def n: Int? := None / for i in 0 .. n do print(i)               -- accepted, TypeError *)
Definition w_range : program :=
  prog [] [] [SDef "n" false (Some (opt tInt)) ENone; SFor "i" (EInt 0) (EVar "n") [SPrint (EVar "i")]].

(** def h(x: Int) -> Int => def mut y := x                          -- accepted, h returns None *)
Definition w_falloff : program :=
  prog [] [{| fd_name := "h"; fd_params := [{| pa_name := "x"; pa_ty := tInt; pa_default := None |}];
              fd_ret := Some tInt; fd_body := [SDef "y" true None (EVar "x")]; fd_result := None |}] [].

Definition cE : cdef := {| cd_name := "E"; cd_parent := Some ("Exception", [EVar "msg"]); cd_fields := [("msg", tStr)]; cd_methods := [] |}.
Definition fG : fdef :=
  {| fd_name := "g"; fd_params := [{| pa_name := "a"; pa_ty := tInt; pa_default := None |}]; fd_ret := Some tInt;
     fd_body := [SIf (EOp "__gt__" (EVar "a") (EInt 3)) [SRaise "E" [EStr "big"]] []]; fd_result := Some (EVar "a") |}.
(** def r: Int := g(5) handle / err: E => "s"                        -- accepted, r is a Str *)
Definition w_handle : program :=
  prog [cE] [fG] [SHandle (Some {| b_var := "r"; b_mut := false; b_ann := Some tInt |}) (ECall "g" [EInt 5])
                          [HArm "E" "err" [] (Some (EStr "s"))]].

(** class B(def a: Int) / class D(def x: Int): B("z")               -- accepted *)
Definition w_parent : program :=
  prog [{| cd_name := "B"; cd_parent := None; cd_fields := [("a", tInt)]; cd_methods := [] |};
        {| cd_name := "D"; cd_parent := Some ("B", [EStr "z"]); cd_fields := [("x", tInt)]; cd_methods := [] |}] [] [].

(** def f(x: Int?) -> Int => return 3 / print(f(None))               -- refused although None is an Int? *)
Definition w_param : program :=
  prog [] [{| fd_name := "f"; fd_params := [{| pa_name := "x"; pa_ty := opt tInt; pa_default := None |}];
              fd_ret := Some tInt; fd_body := []; fd_result := Some (EInt 3) |}]
       [SPrint (ECall "f" [ENone])].

(** def x: Int? := None / def y := x ? 3 / print(y)                  -- refused ("cannot infer") although y is an Int *)
Definition w_loose : program :=
  prog [] [] [SDef "x" false (Some (opt tInt)) ENone; SDef "y" false None (EQuest (EVar "x") (EInt 3)); SPrint (EVar "y")].

Lemma not_conforms p : chk noq p = false -> ~ cfm p.
Proof. intros H HC. apply (check_noq_iff generated stub_sigs) in HC. unfold chk in H. rewrite H in HC. discriminate. Qed.
Lemma is_conforms p : chk noq p = true -> cfm p.
Proof. intros H. apply (check_noq_iff generated stub_sigs). exact H. Qed.

Theorem accepts_nonconforming :
  Forall (fun p => chk impl p = true /\ ~ cfm p) [w_field; w_quest; w_range; w_falloff; w_handle; w_parent].
Proof. repeat constructor; try (vm_compute; reflexivity); apply not_conforms; vm_compute; reflexivity. Qed.

Theorem accepts_nonconforming_ex : exists p, chk impl p = true /\ ~ cfm p.
Proof. exists w_handle. apply (proj1 (Forall_forall _ _) accepts_nonconforming). cbn. tauto. Qed.

Theorem null_flow_refuted :
  Forall (fun p => chk impl p = true /\ ~ cfm p) [w_field; w_quest; w_range] /\
  (exists l, obligations generated stub_sigs w_field = Some l /\ In (OFieldRecv (TN true "C" []) false) l) /\
  (exists l, obligations generated stub_sigs w_quest = Some l /\ In (OSub KInit [tInt] (TN true "Int" []) true) l) /\
  (exists l, obligations generated stub_sigs w_range = Some l /\ In (ORange true (TN true "Int" []) false) l).
Proof.
  split.
  - refine (incl_Forall _ accepts_nonconforming). intros p Hp. cbn in *. tauto.
  - repeat split; eexists; (split; [vm_compute; reflexivity|]); cbn; tauto.
Qed.

Theorem rejects_conforming_loose : chk impl w_loose = false /\ cfm w_loose.
Proof. split; [vm_compute; reflexivity | apply is_conforms; vm_compute; reflexivity]. Qed.

Theorem rejects_conforming_param :
  call_params_strip_nullable = true -> chk impl w_param = false /\ cfm w_param.
Proof.
  intros H. split; [|apply is_conforms; vm_compute; reflexivity].
  unfold impl. rewrite H. vm_compute. reflexivity.
Qed.

(** each witness has an obligation in some known class; [strip] is fixed to [true] here so that [w_param] counts
    whatever the generated flag [call_params_strip_nullable] says *)
Theorem witnesses_known :
  forallb (fun p => negb (known_free generated stub_sigs true p))
          [w_field; w_quest; w_range; w_falloff; w_handle; w_parent; w_param; w_loose] = true.
Proof. vm_compute. reflexivity. Qed.

(** a conforming program outside the known classes, using a class with a method, a function with a default, a loop,
    a branch, a match, [x ? d] at a typed position and a nullable value at a nullable position *)
Definition demo : program :=
  prog [{| cd_name := "P"; cd_parent := None; cd_fields := [("a", tInt); ("n", opt tStr)];
           cd_methods := [{| fd_name := "m"; fd_params := [{| pa_name := "q"; pa_ty := tInt; pa_default := Some (EInt 1) |}];
                             fd_ret := Some tInt; fd_body := []; fd_result := Some (EOp "__add__" (EField (EVar "self") "a") (EVar "q")) |}] |}]
       [{| fd_name := "f"; fd_params := [{| pa_name := "x"; pa_ty := tFloat; pa_default := None |};
                                         {| pa_name := "s"; pa_ty := tStr; pa_default := Some (EStr "d") |}];
           fd_ret := Some (opt tFloat);
           fd_body := [SIf (EOp "__lt__" (EVar "x") (EFloat "1.0")) [SReturn ENone] []];
           fd_result := Some (EOp "__mul__" (EVar "x") (EInt 2)) |}]
       [SDef "o" true None (ECall "P" [EInt 3; EStr "s"]);
        SDef "k" false (Some tInt) (EMeth (EVar "o") "m" []);
        SDef "z" true (Some (opt tFloat)) (ECall "f" [EVar "k"]);
        SDef "w" false (Some tFloat) (EQuest (EVar "z") (EFloat "0.5"));
        SFor "i" (EInt 0) (EVar "k") [SMatch (EVar "i") [(PInt 1, [SPrint (EFmt [EVar "i"])]); (PWild, [SPrint (EVar "w")])]];
        SAssign "z" ENone].

Example demo_conforms : cfm demo /\ chk impl demo = true /\ known_free generated stub_sigs call_params_strip_nullable demo = true.
Proof. split; [apply is_conforms; vm_compute; reflexivity|]. split; vm_compute; reflexivity. Qed.
