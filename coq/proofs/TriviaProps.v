(** * Layout trivia and the token stream: the edits of C14 at lexer level

    Every theorem compares the whole run of the lexer model on the original and on the edited
    text ([run_tls]: [tokenize] before the tokens of interpolated expressions are flattened in;
    [raw_tls]: the same before the doc-string pass).  The edit is made at a point [pre | R] where
    [pre] is lexically complete on its own ([complete]) and [R] starts with a line break or is
    empty: the run on [pre ++ R] is then the run on [pre] followed by the run on [R] from the
    state reached ([raw_split]), and the edit only changes the state in which [R] is read. *)
From Coq Require Import List Ascii ZArith Bool Lia Arith.
From MambaModel Require Import model.LexTok gen.LexTables model.Lex proofs.LexProps model.Trivia
  proofs.TriviaFuel proofs.TriviaScan proofs.TriviaSim proofs.TriviaShift.
Import ListNotations.
Local Open Scope Z_scope.

Definition prefix_run (pre : str) : lres := tok_loop (S (length pre)) pre state0 [].
Definition complete (eol : bool) (pre : str) : bool := splittable eol (S (length pre)) pre.

Definition ends_on_token_line (pre : str) : bool :=
  match prefix_run pre with inl (inl (st, _)) => token_this_line st | _ => false end.

Definition accepted (pre : str) : bool :=
  match prefix_run pre with inl (inl _) => true | _ => false end.

Lemma accepted_run s : accepted s = true <-> exists tls, run_tls s = Some tls.
Proof.
  unfold accepted, prefix_run, run_tls, run_fuel.
  rewrite (loop_fuel2 (S (S (length s))) (S (length s))) by lia.
  destruct (tok_loop (S (length s)) s state0 []) as [[[st acc]|?]|?]; split; try discriminate.
  - intros _. eexists. reflexivity.
  - reflexivity.
  - intros [tls H]. discriminate H.
  - intros [tls H]. discriminate H.
Qed.

Lemma accepted_inv pre : accepted pre = true -> exists st acc, prefix_run pre = inl (inl (st, acc)).
Proof. unfold accepted. destruct (prefix_run pre) as [[[st acc]|?]|?]; try discriminate. eauto. Qed.

Lemma token_line_inv pre :
  ends_on_token_line pre = true ->
  exists st acc, prefix_run pre = inl (inl (st, acc)) /\ token_this_line st = true
                 /\ newlines st = [] /\ line_indent st = cur_indent st.
Proof.
  unfold ends_on_token_line. destruct (prefix_run pre) as [[[st acc]|?]|?] eqn:Hp; try discriminate.
  intros He. exists st, acc. split; [reflexivity|]. split; [exact He|].
  apply (flag_inv_loop _ _ _ _ _ Hp), He.
Qed.

Lemma prefix_ok_weaken e c a : prefix_ok false c a = true -> prefix_ok e c a = true.
Proof.
  unfold prefix_ok. destruct (scan c a) as [t rest | content exprs rest | rest | err]; try tauto.
  destruct t; try tauto. destruct rest; [discriminate | tauto].
Qed.

Lemma complete_weaken e pre : complete false pre = true -> complete e pre = true.
Proof.
  unfold complete. generalize (S (length pre)). intros fuel. revert pre.
  induction fuel as [|fuel IH]; intros s H; [reflexivity|]. destruct s as [|c r]; [reflexivity|].
  cbn [splittable] in *. apply andb_prop in H as [H1 H2]. rewrite (prefix_ok_weaken e c r H1). cbn [andb].
  destruct (scan_rest (scan c r)); [apply IH, H2 | reflexivity].
Qed.

Definition raw_with (acc : list tl) (x : lres) : option (list tl) :=
  match x with inl (inl (st, out)) => Some (raw_of (st, acc ++ out)) | _ => None end.

Lemma raw_split pre R st acc :
  hd_stop R = true -> complete (hd_eol R) pre = true -> prefix_run pre = inl (inl (st, acc)) ->
  raw_tls (pre ++ R) = raw_with acc (lex_from st R).
Proof.
  intros HR Hc Hp. unfold raw_tls, complete, prefix_run in *.
  rewrite (loop_split _ pre state0 [] st acc R _ HR Hc (Nat.lt_succ_diag_r _) Hp) by (unfold run_fuel; lia).
  rewrite loop_acc. fold (lex_from st R).
  destruct (lex_from st R) as [[[st' out]|?]|?]; reflexivity.
Qed.

Lemma raw_with_sim d RI (H : inner_ok d RI) acc1 acc2 x y :
  Forall2 (tl_rel d RI) acc1 acc2 -> res_rel d RI same_indent x y ->
  opt_rel (Forall2 (tl_rel d RI)) (raw_with acc1 x) (raw_with acc2 y).
Proof.
  intros Ha. destruct x as [[[a oa]|?]|?], y as [[[b ob]|?]|?]; cbn [raw_with res_rel opt_rel]; try tauto.
  intros [Hi Ho].
  destruct (raw_of_tail a acc1 oa) as [p ->], (raw_of_tail b acc2 ob) as [q ->].
  apply Forall2_app; [exact Ha | apply (tail_sim d RI H); assumption].
Qed.

Lemma tls_rel0_refl l : Forall2 (tl_rel 0 eq) l l.
Proof. apply tls_eqv_rel, tls_eqv_refl. Qed.

Lemma run_eqv (l1 l2 : option (list tl)) :
  opt_rel (Forall2 (tl_rel 0 eq)) l1 l2 ->
  opt_rel (Forall2 tl_eqv) (match l1 with Some l => Some (docstring_pass l) | None => None end)
                           (match l2 with Some l => Some (docstring_pass l) | None => None end).
Proof.
  destruct l1, l2; cbn; try tauto. intros H. apply tls_eqv_rel, (docstring_pass_sim 0 eq inner_ok_eq), H.
Qed.

Lemma iter_shift {A} (f : A -> A) n x : Nat.iter n f (f x) = Nat.iter (S n) f x.
Proof.
  induction n as [|n IH]; [reflexivity|].
  change (Nat.iter (S n) f (f x)) with (f (Nat.iter n f (f x))). rewrite IH. reflexivity.
Qed.

Lemma lex_from_spaces n : forall st R,
  lex_from st (spaces n ++ R) = lex_from (Nat.iter n state_space st) R.
Proof.
  induction n as [|n IH]; intros st R; [reflexivity|].
  cbn [spaces repeat app]. fold (spaces n). rewrite lex_from_sp, IH, iter_shift. reflexivity.
Qed.

Lemma lex_from_hash st text R :
  no_eol text = true -> hd_eol R = true ->
  lex_from st (c_hash :: text ++ R)
  = with_acc (map tl0 (emit_layout st) ++ [tl0 (mk_lex (pos st) (MComment text))])
             (lex_from (after_emit st (MComment text)) R).
Proof.
  intros Ht HR. unfold lex_from at 1. cbn [length]. rewrite tok_loop_step. unfold step, emit.
  rewrite (scan_hash text R Ht HR). cbn [is_nl]. apply lex_from_fuel. rewrite app_length. lia.
Qed.

Lemma spaces_state n st :
  let st2 := Nat.iter n state_space st in
  newlines st2 = newlines st /\ cur_indent st2 = cur_indent st
  /\ token_this_line st2 = token_this_line st /\ line (pos st2) = line (pos st)
  /\ (token_this_line st = true -> line_indent st2 = line_indent st).
Proof.
  induction n as [|n IH]; [cbv zeta; repeat split|].
  cbv zeta in *. change (Nat.iter (S n) state_space st) with (state_space (Nat.iter n state_space st)).
  set (s1 := Nat.iter n state_space st) in *. destruct IH as (H1 & H2 & H3 & H4 & H5).
  unfold state_space. cbn [newlines cur_indent token_this_line pos line_indent offset_pos line].
  repeat split; try assumption. intros F. rewrite H3, F, (H5 F). lia.
Qed.

Lemma hd_stop_spaces n R : hd_stop R = true -> hd_stop (spaces n ++ R) = true.
Proof. destruct n; [tauto | reflexivity]. Qed.

Lemma lex_sh0_refl l : Forall2 (lex_sh 0) l l.
Proof. induction l; constructor; [apply tok_eqv_sh0, tok_eqv_refl | assumption]. Qed.

Definition one_more_comment (text : str) (l1 l2 : list tl) : Prop :=
  exists a b b' cm,
    l1 = a ++ b /\ l2 = a ++ tl0 cm :: b' /\ ltok cm = MComment text /\ lnested cm = false
    /\ Forall2 tl_eqv b b'.

(** the first token after the comment is not a string literal: there the doc-string pass can be cut
    ([docstring_pass_cut]) *)
Definition one_more_comment_sep (text : str) (l1 l2 : list tl) : Prop :=
  exists a b b' cm,
    l1 = a ++ b /\ l2 = a ++ tl0 cm :: b' /\ ltok cm = MComment text /\ lnested cm = false
    /\ hd_nonstr b /\ Forall2 (tl_rel 0 eq) b b'.

Lemma eol_first R st st' out :
  hd_eol R = true -> nls_ok st -> lex_from st R = inl (inl (st', out)) ->
  match out with [] => True | x :: _ => ltok (top x) = MNL end.
Proof.
  intros HR Hok H. destruct (eol_loop R HR) as [-> | [[R' E] | E]]; rewrite ?E in H.
  - rewrite lex_from_nil in H. inversion H. exact I.
  - eapply first_out_nl; [| apply newline_nls_ok, Hok | exact H].
    unfold state_newline. cbn. intros F. apply app_eq_nil in F as [_ F]. discriminate F.
  - discriminate H.
Qed.

Lemma prefix_nls_ok pre st acc : prefix_run pre = inl (inl (st, acc)) -> nls_ok st.
Proof. intros H. eapply nl_inv_nls_ok, nl_inv_loop, H. Qed.

Lemma trailing_comment_sep pre R k text :
  ends_on_token_line pre = true -> complete false pre = true ->
  no_eol text = true -> hd_eol R = true ->
  opt_rel (one_more_comment_sep text)
          (raw_tls (pre ++ R)) (raw_tls (pre ++ spaces (S k) ++ c_hash :: text ++ R)).
Proof.
  intros He Hc Ht HR. apply token_line_inv in He as (st & acc & Hp & Hflag & Hn & Hl).
  pose proof (hd_eol_stop R HR) as HRs.
  set (st2 := Nat.iter (S k) state_space st).
  destruct (spaces_state (S k) st) as (H1 & H2 & H3 & H4 & H5). fold st2 in H1, H2, H3, H4, H5.
  set (cm := mk_lex (pos st2) (MComment text)). set (st3 := after_emit st2 (MComment text)).
  rewrite (raw_split pre R st acc HRs (complete_weaken _ _ Hc) Hp).
  rewrite (raw_split pre (spaces (S k) ++ c_hash :: text ++ R) st acc eq_refl (complete_weaken _ _ Hc) Hp).
  (* the blanks, then the comment: no layout token is due *)
  rewrite lex_from_spaces. fold st2. rewrite (lex_from_hash st2 text R Ht HR).
  replace (emit_layout st2) with (@nil lex)
    by (unfold emit_layout; rewrite H1, H2, (H5 Hflag), Hn, Hl, Z.leb_refl, Z.sub_diag; reflexivity).
  cbn [app map]. fold cm st3.
  assert (Hs : res_rel 0 eq same_indent (lex_from st R) (lex_from st3 R)).
  { apply (eol_sim 0 eq inner_ok_eq); [exact HR | rewrite Hn; constructor | |].
    - unfold st3. cbn [after_emit cur_indent]. rewrite (H5 Hflag). symmetry. exact Hl.
    - unfold st3. rewrite after_emit_pos. cbn [line nl_of]. lia. }
  pose proof (eol_first R st) as Hfirst.
  destruct (lex_from st R) as [[[a oa]|e1]|u1], (lex_from st3 R) as [[[b ob]|e2]|u2];
    cbn [res_rel raw_with with_acc opt_rel] in Hs |- *; try tauto.
  destruct Hs as [Hi Ho].
  specialize (Hfirst a oa HR (prefix_nls_ok _ _ _ Hp) eq_refl).
  destruct (raw_of_tail a acc oa) as [p ->], (raw_of_tail b acc ([tl0 cm] ++ ob)) as [q ->].
  exists acc, (tail_of p (a, oa)), (tail_of q (b, ob)), cm. repeat (split; [reflexivity|]).
  split; [apply tail_head_nonstr, Hfirst | apply (tail_sim 0 eq inner_ok_eq); assumption].
Qed.

Theorem trailing_comment_raw pre R k text :
  ends_on_token_line pre = true -> complete false pre = true ->
  no_eol text = true -> hd_eol R = true ->
  opt_rel (one_more_comment text)
          (raw_tls (pre ++ R)) (raw_tls (pre ++ spaces (S k) ++ c_hash :: text ++ R)).
Proof.
  intros He Hc Ht HR. eapply opt_rel_impl; [|apply (trailing_comment_sep pre R k text He Hc Ht HR)].
  intros l1 l2 (a & b & b' & cm & -> & -> & Hcm & Hcn & _ & Hrel).
  exists a, b, b', cm. repeat split; try assumption. apply tls_eqv_rel, Hrel.
Qed.

Theorem trailing_comment pre R k text :
  ends_on_token_line pre = true -> complete false pre = true ->
  no_eol text = true -> hd_eol R = true ->
  opt_rel (one_more_comment text)
          (run_tls (pre ++ R)) (run_tls (pre ++ spaces (S k) ++ c_hash :: text ++ R)).
Proof.
  intros He Hc Ht HR. pose proof (trailing_comment_sep pre R k text He Hc Ht HR) as H.
  rewrite !run_tls_raw.
  destruct (raw_tls (pre ++ R)) as [l1|], (raw_tls (pre ++ spaces (S k) ++ c_hash :: text ++ R)) as [l2|];
    cbn in *; try tauto.
  destruct H as (a & b & b' & cm & -> & -> & Hcm & Hcn & Hb & Hrel).
  rewrite (docstring_pass_cut a b Hb).
  rewrite (docstring_pass_nonstr a (tl0 cm) b') by (cbn; rewrite Hcm; reflexivity).
  exists (docstring_pass a), (docstring_pass b), (docstring_pass b'), cm.
  repeat split; try assumption. apply tls_eqv_rel, (docstring_pass_sim 0 eq inner_ok_eq), Hrel.
Qed.

Lemma norm_of_run s :
  norm_of s = match run_tls s with Some tls => Some (kinds_norm (flatten tls)) | None => None end.
Proof.
  unfold norm_of, tokenize, tokenize_fuel, run_tls, run_fuel.
  destruct (tok_loop (S (S (length s))) s state0 []) as [[[st acc]|[p e]]|u]; reflexivity.
Qed.

Definition knf (l : list tl) : list token := kinds_norm (flatten l).

Lemma knf_app a b : knf (a ++ b) = knf a ++ knf b.
Proof. unfold knf, kinds_norm, kinds, strip_comments, flatten. rewrite flat_map_app, filter_app, map_app. reflexivity. Qed.

Lemma kinds_norm_filter ts : kinds_norm ts = filter (fun t => negb (is_comment t)) (map ltok ts).
Proof.
  unfold kinds_norm, kinds, strip_comments. induction ts as [|l ts IH]; [reflexivity|].
  cbn [filter map]. destruct (negb (is_comment (ltok l))); cbn [map]; rewrite IH; reflexivity.
Qed.

Lemma knf_sim d RI (H : inner_ok d RI) l1 l2 : Forall2 (tl_rel d RI) l1 l2 -> knf l1 = knf l2.
Proof. intros Hr. unfold knf. rewrite !kinds_norm_filter, (kinds_flatten_sim d RI H _ _ Hr). reflexivity. Qed.

Lemma knf_eqv l1 l2 : Forall2 tl_eqv l1 l2 -> knf l1 = knf l2.
Proof. intros H. apply (knf_sim 0 eq inner_ok_eq), tls_eqv_rel, H. Qed.

Lemma knf_top x : inner x = [] -> knf [x] = if is_comment (ltok (top x)) then [] else [ltok (top x)].
Proof. intros H. unfold knf. cbn. rewrite H. cbn. destruct (is_comment (ltok (top x))); reflexivity. Qed.

Lemma norm_of_rel (R : list tl -> list tl -> Prop) (Q : list token -> list token -> Prop) s1 s2 :
  (forall l1 l2, R l1 l2 -> Q (knf l1) (knf l2)) ->
  opt_rel R (run_tls s1) (run_tls s2) -> opt_rel Q (norm_of s1) (norm_of s2).
Proof. intros H. rewrite !norm_of_run. destruct (run_tls s1), (run_tls s2); cbn [opt_rel]; auto. apply H. Qed.

Lemma opt_rel_eq {A} (x y : option A) : opt_rel (fun a b => b = a) x y -> y = x.
Proof. destruct x, y; cbn; try tauto. intros ->. reflexivity. Qed.

Lemma norm_of_eqv s1 s2 :
  opt_rel (Forall2 tl_eqv) (run_tls s1) (run_tls s2) -> norm_of s2 = norm_of s1.
Proof. intros H. apply opt_rel_eq, (norm_of_rel (Forall2 tl_eqv)); [|exact H]. intros l1 l2 Hl. symmetry. apply knf_eqv, Hl. Qed.

Lemma knf_one_more_comment text l1 l2 : one_more_comment text l1 l2 -> knf l2 = knf l1.
Proof.
  intros (a & b & b' & cm & -> & -> & Hcm & _ & Hrel). change (tl0 cm :: b') with ([tl0 cm] ++ b').
  rewrite !knf_app, (knf_top (tl0 cm) eq_refl). cbn [top tl0]. rewrite Hcm, (knf_eqv _ _ Hrel). reflexivity.
Qed.

Lemma nl_drop_after k2 : forall k1 prev z, (z = MNL \/ z = MIndent) ->
  nl_drop prev (k1 ++ z :: MNL :: k2) = nl_drop prev (k1 ++ z :: k2).
Proof.
  induction k1 as [|a k1 IH]; intros prev z Hz.
  - cbn [app]. destruct Hz as [-> | ->]; cbn [nl_drop]; [|reflexivity].
    destruct prev as [p|]; [destruct p|]; reflexivity.
  - cbn [app]. destruct a; cbn [nl_drop]; try (rewrite (IH _ _ Hz); reflexivity).
    destruct prev as [p|]; [destruct p|]; rewrite (IH _ _ Hz); reflexivity.
Qed.

Lemma repaired_of_norm s :
  repaired_norm_of s = match norm_of s with Some n => Some (nl_drop None n) | None => None end.
Proof. unfold repaired_norm_of, norm_of, kinds_repaired. destruct (tokenize s); reflexivity. Qed.

Lemma nlc_cons a l :
  nl_collapse (a :: l) =
  match a, l with MNL, MNL :: _ => nl_collapse l | _, _ => a :: nl_collapse l end.
Proof.
  destruct a; reflexivity.
Qed.

Lemma nl_collapse_dup k1 k3 :
  nl_collapse (k1 ++ MNL :: MNL :: k3) = nl_collapse (k1 ++ MNL :: k3).
Proof.
  induction k1 as [|a k1 IH]; [reflexivity|].
  rewrite <- !app_comm_cons, !nlc_cons.
  destruct k1 as [|b k1].
  - simpl app in *. destruct a; rewrite ?IH; reflexivity.
  - simpl app in *. destruct a; rewrite IH; reflexivity.
Qed.
