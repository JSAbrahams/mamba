(** * Renaming and the parts of the generator around [conv]: registered imports and the rendering
      of types *)
From Coq Require Import List String Bool.
From MambaModel Require Import model.Core gen.Names model.Convert model.Rename
  proofs.ConvertProps proofs.RenameProps.
Import ListNotations.
Local Open Scope string_scope.

Section Types.
  Context {rho : string -> string} {rfs : string -> string} {G : Good rho}.
  Notation ren := (ren_core rho rfs).
  Notation rnm := (ren_nm rho).
  Notation rtn := (ren_tn rho).
  Notation rnames := (ren_names rho rfs).

  Definition iok (i : imports) : Prop :=
    map ren (imps i) = imps i /\
    option_map rnames (typing_imps i) = typing_imps i /\
    map (fun kv : string * (list core * list core) => (fst kv, rnames (snd kv))) (other_from i) = other_from i.

  Lemma iok_ren_imports i : iok i -> ren_imports rho rfs i = i.
  Proof. intros (H1 & H2 & H3). destruct i as [a b c]. unfold ren_imports. cbn [imps typing_imps other_from] in *. congruence. Qed.
  Lemma iok0 : iok imports0.
  Proof. repeat split. Qed.

  Lemma add_import_iok name i : rho name = name -> iok i -> iok (add_import name i).
  Proof.
    intros Hn (H1 & H2 & H3). unfold add_import. destruct (existsb _ _); [repeat split; assumption|].
    repeat split; cbn [imps typing_imps other_from]; try assumption.
    rewrite map_app, H1. cbn [map ren_core]. rewrite Hn. reflexivity.
  Qed.

  Lemma insert_sorted_fixed x l : rho x = x -> map ren l = l -> map ren (insert_sorted_id x l) = insert_sorted_id x l.
  Proof.
    intros Hx. induction l as [|y r IH]; intros Hl; [cbn; rewrite Hx; reflexivity|].
    cbn [map] in Hl. injection Hl as Hy Hr.
    destruct (insert_sorted_cons x y r) as [-> | ->]; cbn [map ren_core]; rewrite ?Hx, ?Hy, ?Hr, ?(IH Hr); reflexivity.
  Qed.

  Lemma add_name_fixed name v :
    rho name = name -> option_map rnames v = v -> rnames (add_name name v) = add_name name v.
  Proof.
    intros Hn Hv. destruct v as [[names alias]|]; cbn [add_name].
    - cbn [option_map] in Hv. inversion Hv as [[H1 H2]]. unfold ren_names. cbn [fst snd]. rewrite !H1, !H2.
      destruct (existsb _ names); [rewrite H1; reflexivity|]. rewrite insert_sorted_fixed; [reflexivity | exact Hn | exact H1].
    - unfold ren_names. cbn [fst snd map ren_core]. rewrite Hn. reflexivity.
  Qed.

  Lemma map_get_fixed k (m : list (string * (list core * list core))) :
    map (fun kv => (fst kv, rnames (snd kv))) m = m -> option_map rnames (map_get k m) = map_get k m.
  Proof.
    induction m as [|[k' v] r IH]; [reflexivity|]. cbn [map map_get fst snd]. intros H. inversion H as [[Hv Hr]].
    rewrite !Hv, !Hr. destruct (String.eqb k k'); [cbn [option_map]; congruence | apply IH, Hr].
  Qed.
  Lemma map_insert_fixed k v (m : list (string * (list core * list core))) :
    rnames v = v -> map (fun kv => (fst kv, rnames (snd kv))) m = m ->
    map (fun kv => (fst kv, rnames (snd kv))) (map_insert k v m) = map_insert k v m.
  Proof.
    intros Hv. induction m as [|[k' v'] r IH]; cbn [map map_insert fst snd]; [rewrite Hv; reflexivity|].
    intros H. inversion H as [[Hv' Hr]]. rewrite !Hv', !Hr.
    destruct (String.eqb k k'); [cbn [map fst snd]; rewrite Hv, Hr; reflexivity|].
    destruct (str_ltb k k'); cbn [map fst snd]; [rewrite Hv, Hv', Hr; reflexivity|].
    rewrite Hv', (IH Hr). reflexivity.
  Qed.

  Lemma add_from_iok from name i : rho name = name -> iok i -> iok (add_from_import from name i).
  Proof.
    intros Hn (H1 & H2 & H3). unfold add_from_import. destruct (String.eqb from "typing").
    - repeat split; cbn [imps typing_imps other_from]; try assumption.
      cbn [option_map]. f_equal. apply add_name_fixed; assumption.
    - repeat split; cbn [imps typing_imps other_from]; try assumption.
      apply map_insert_fixed; [|exact H3]. apply add_name_fixed; [exact Hn | apply map_get_fixed, H3].
  Qed.

  Lemma variant_core_ren s cs : variant_core (rho s) (map ren cs) = ren (variant_core s cs).
  Proof.
    unfold variant_core. rewrite !eqb_const by in_list. rewrite c2p_ren.
    destruct (String.eqb s n_tuple_m); [cbn [ren_core]; fxr n_tuple_py; reflexivity|].
    destruct (String.eqb s n_callable_m); [|reflexivity].
    cbn [ren_core]. fxr n_callable_py. destruct cs as [|a [|r rest]]; reflexivity.
  Qed.
  Lemma variant_adds_ren s ls : variant_adds (rho s) ls = variant_adds s ls.
  Proof. unfold variant_adds. rewrite !eqb_const by in_list. reflexivity. Qed.
  Lemma nm_core_ren : forall n, nm_core (rnm n) = ren (nm_core n).
  Proof.
    apply (nm_ind2 (fun n => nm_core (rnm n) = ren (nm_core n)) (fun t => tn_core (rtn t) = ren (tn_core t))).
    - intros [|t [|t2 r]] H; [reflexivity | inversion H; assumption|].
      change (Type_ n_union_py (map tn_core (map rtn (t :: t2 :: r))) = ren (Type_ n_union_py (map tn_core (t :: t2 :: r)))).
      cbn [ren_core]. fxr n_union_py. rewrite !map_map. f_equal. apply map_ext_Forall, H.
    - intros b s gs H. change (tn_core (rtn (TN b s gs))) with (tn_core_with nm_core (TN b (rho s) (map rnm gs))).
      cbn [tn_core tn_core_with]. rewrite map_map, (map_ext_Forall _ _ H), <- map_map, variant_core_ren.
      destruct b; [cbn [ren_core map]; fxr "Optional"|]; reflexivity.
  Qed.
  Lemma nm_adds_ren : forall n, nm_adds (rnm n) = nm_adds n.
  Proof.
    apply (nm_ind2 (fun n => nm_adds (rnm n) = nm_adds n) (fun t => tn_adds (rtn t) = tn_adds t)).
    - intros [|t [|t2 r]] H; [reflexivity | inversion H; assumption|].
      change (n_union_py :: List.concat (map tn_adds (map rtn (t :: t2 :: r))) = n_union_py :: List.concat (map tn_adds (t :: t2 :: r))).
      rewrite map_map, (map_ext_Forall _ _ H). reflexivity.
    - intros b s gs H. change (tn_adds (rtn (TN b s gs))) with (tn_adds_with nm_adds (TN b (rho s) (map rnm gs))).
      cbn [tn_adds tn_adds_with]. rewrite map_map, (map_ext_Forall _ _ H), variant_adds_ren. reflexivity.
  Qed.
  Lemma tn_core_ren t : tn_core (rtn t) = ren (tn_core t).
  Proof. exact (nm_core_ren (NM [t])). Qed.
  Lemma tn_adds_ren t : tn_adds (rtn t) = tn_adds t.
  Proof. exact (nm_adds_ren (NM [t])). Qed.
End Types.
