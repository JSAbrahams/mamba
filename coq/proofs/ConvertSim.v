(** * The annotate flag is inert (C11): simulation between the two runs of [conv] *)
From Coq Require Import List String Bool Arith Lia.
From MambaModel Require Import model.Core gen.Names model.Convert proofs.ConvUnfold proofs.ConvertProps.
Import ListNotations.
Local Open Scope string_scope.

Definition Psim (a : ast) : Prop :=
  forall st1 st0, srel st1 st0 -> mrel crel (conv a st1) (conv a st0).

(** [srel] of two states updated in the same way *)
Ltac srel_upd :=
  first [ assumption
        | simple apply srel_interface; srel_upd | simple apply srel_def_as_fun_arg; srel_upd
        | simple apply srel_clear; srel_upd | simple apply srel_expand; srel_upd | simple apply srel_tup_lit; srel_upd
        | simple apply srel_last_ret; srel_upd | simple apply srel_remove_ret; srel_upd | simple apply srel_assign_none; srel_upd ].

Lemma bin_core_erase o l r : erase (bin_core o l r) = bin_core o (erase l) (erase r).
Proof. destruct o; reflexivity. Qed.
Lemma un_core_erase o e : erase (un_core o e) = un_core o (erase e).
Proof. destruct o; reflexivity. Qed.

(** [crel] of two results built by the same constructor from related parts *)
Ltac crel_solve :=
  repeat match goal with H : Forall2 crel _ _ |- _ => apply map_erase_F2 in H end;
  unfold crel, orel, erase_opt in *; rewrite ?bin_core_erase, ?un_core_erase; cbn [erase map];
  congruence.

(** what [conv] inspects of a converted sub-term survives erasure *)
Lemma crel_shape {X} (p : core -> X) : (forall c, p (erase c) = p c) -> forall c1 c0, crel c1 c0 -> p c1 = p c0.
Proof. intros E c1 c0 H. rewrite <- (E c1), <- (E c0), H. reflexivity. Qed.

Lemma is_branching_crel c1 c0 : crel c1 c0 -> is_branching c1 = is_branching c0.
Proof. apply crel_shape. destruct c; reflexivity. Qed.
Lemma is_tuple_literal_crel c1 c0 : crel c1 c0 -> is_tuple_literal c1 = is_tuple_literal c0.
Proof. apply crel_shape. destruct c; reflexivity. Qed.
Lemma is_self_crel c1 c0 : crel c1 c0 -> is_self c1 = is_self c0.
Proof. apply crel_shape. destruct c; reflexivity. Qed.
Lemma tl_default_crel v1 v0 : crel v1 v0 -> tl_default v1 = tl_default v0.
Proof. apply crel_shape. destruct c; try reflexivity. cbn [erase tl_default]. rewrite map_map. reflexivity. Qed.
Lemma id_lit_crel c1 c0 : crel c1 c0 -> id_lit c1 = id_lit c0.
Proof. apply crel_shape. destruct c; reflexivity. Qed.
Lemma is_underscore_crel c1 c0 : crel c1 c0 -> is_underscore c1 = is_underscore c0.
Proof. apply crel_shape. destruct c; reflexivity. Qed.

Lemma body_stmts_rel b1 b0 : orel b1 b0 ->
  map erase (match b1 with Some x => block_stmts x | None => [] end)
  = map erase (match b0 with Some x => block_stmts x | None => [] end).
Proof.
  unfold orel. destruct b1, b0; cbn [erase_opt]; intros H; try discriminate H; [|reflexivity].
  rewrite <- !block_stmts_erase. congruence.
Qed.

Lemma assemble_rel stmts1 stmts0 ca1 ca0 ps1 ps0 (k1 k0 : list core -> list core -> M core) :
  Forall2 crel ps1 ps0 -> Forall2 crel ca1 ca0 -> map erase stmts1 = map erase stmts0 ->
  (forall pn1 bs1 pn0 bs0, map erase pn1 = map erase pn0 -> map erase bs1 = map erase bs0 ->
     mrel crel (k1 pn1 bs1) (k0 pn0 bs0)) ->
  mrel crel
    (match assemble_class stmts1 ca1 ps1 with Some (pn, bs) => k1 pn bs | None => fail end)
    (match assemble_class stmts0 ca0 ps0 with Some (pn, bs) => k0 pn bs | None => fail end).
Proof.
  intros Hps Hca Hst Hk.
  pose proof (assemble_class_erase stmts1 ca1 ps1) as E1.
  pose proof (assemble_class_erase stmts0 ca0 ps0) as E0.
  rewrite Hst, (map_erase_F2 _ _ Hps), (map_erase_F2 _ _ Hca) in E1. rewrite E0 in E1.
  destruct (assemble_class stmts1 ca1 ps1) as [[pn1 bs1]|], (assemble_class stmts0 ca0 ps0) as [[pn0 bs0]|];
    cbn [option_map] in E1; try discriminate E1; [|apply mrel_fail].
  inversion E1 as [[Hpn Hbs]]. apply Hk; symmetry; assumption.
Qed.

Lemma class_def_rel name generics pn1 bs1 pn0 bs0 :
  map erase pn1 = map erase pn0 -> map erase bs1 = map erase bs0 ->
  mrel crel
    (t <- lift (tn_to_py (TN false name generics)) ;;
     match t with Type_ lit _ => ret (ClassDef (Id lit) pn1 (Block bs1)) | _ => fail end)
    (t <- lift (tn_to_py (TN false name generics)) ;;
     match t with Type_ lit _ => ret (ClassDef (Id lit) pn0 (Block bs0)) | _ => fail end).
Proof.
  intros Hpn Hbs. eapply mrel_bind; [apply mrel_tn|]. intros t1 t0 ->.
  destruct t0; try apply mrel_fail. apply mrel_ret. unfold crel. cbn [erase]. congruence.
Qed.

(** [binds] runs the two conversions side by side through every leading step that is a recursive call in
    related states, a registration, or the rendering of a type *)
Ltac binds Hone Hlist Hopt :=
  repeat first
    [ eapply mrel_bind; [first [apply Hone | apply Hlist | apply Hopt]; [size_lia | srel_upd] | intros ? ? ?]
    | eapply mrel_bind; [first [apply mrel_tn | apply mrel_nm | apply mrel_opt_nm] | intros ? ? ->]
    | eapply mrel_bind;
        [apply mrel_touch; intros; first [apply add_import_irel | apply add_from_irel]; assumption | intros _ _ _] ].
(** finishes a node that, after [binds], returns a constructor of its results *)
Ltac same_constructor Hone Hlist Hopt := binds Hone Hlist Hopt; apply mrel_ret; crel_solve.

Theorem sim a : Psim a.
Proof.
  induction a as [[aty nd] Hone] using size_ind. unfold Psim in Hone.
  intros st1 st0 Hs. rewrite !conv_unfold.
  assert (Hlist : forall l, sizes l < size (A aty nd) -> forall s1 s0, srel s1 s0 ->
             mrel (Forall2 crel) (mmap (fun x => conv x s1) l) (mmap (fun x => conv x s0) l)).
  { intros l Hl s1 s0 Hr. apply mrel_mmap. intros x Hx. apply Hone; [|exact Hr].
    pose proof (sizes_in x l Hx). lia. }
  assert (Hopt : forall o, sizeo o < size (A aty nd) -> forall s1 s0, srel s1 s0 ->
             mrel orel (mopt (fun x => conv x s1) o) (mopt (fun x => conv x s0) o)).
  { intros o Ho s1 s0 Hr. apply mrel_mopt. intros x ->. apply Hone; [exact Ho | exact Hr]. }
  rewrite size_unfold in Hone, Hlist, Hopt.
  apply post_rel; [exact Hs|]. unfold conv_result. cbv beta iota zeta.
  (* the cases below start where [binds] stopped *)
  destruct nd; binds Hone Hlist Hopt; try solve [apply mrel_ret; crel_solve].
  - (* NStr *) destruct interpolated; apply mrel_ret; reflexivity.
  - (* NUn *) destruct o; same_constructor Hone Hlist Hopt.
  - (* NTuple *)
    apply mrel_ret.
    destruct Hs as (_ & _ & _ & Ht & _). cbn [tup_lit with_last_ret with_assign]. rewrite Ht.
    destruct (tup_lit st0); crel_solve.
  - (* NRange *)
    eapply mrel_bind with (RX := crel).
    { destruct step as [s|]; [apply Hone; [size_lia | srel_upd] | apply mrel_ret; reflexivity]. }
    intros s1 s0 Hst. apply mrel_ret. destruct incl; crel_solve.
  - (* NSlice *)
    eapply mrel_bind with (RX := crel).
    { destruct step as [s|]; [apply Hone; [size_lia | srel_upd] | apply mrel_ret; reflexivity]. }
    intros s1 s0 Hst. apply mrel_ret. destruct incl; crel_solve.
  - (* NExprType *) apply Hone; [lia | srel_upd].
  - (* NVarDef: the annotation may be rendered on either side, on both or on neither ([mrel_ann]); a branching value is
       converted again *)
    rename H into Hv.
    eapply mrel_bind with (RX := anyrel).
    { apply mrel_ann. intros i. destruct vty as [t|]; [apply opt_nm_keeps|].
      destruct expr as [e|]; [apply opt_nm_keeps | cbn; apply irel_refl]. }
    intros ty1 ty0 _.
    cbn [def_as_fun_arg with_last_ret with_assign].
    pose proof Hs as (_ & _ & Hdef & _). rewrite Hdef. destruct (def_as_fun_arg st0); [same_constructor Hone Hlist Hopt|].
    destruct expr as [e|].
    + eapply mrel_bind; [apply Hone; [size_lia | srel_upd]|]. intros c1 c0 Hc.
      rewrite !branch_match. rewrite (is_branching_crel _ _ Hc). destruct (is_branching c0).
      * apply Hone; [size_lia|]. apply srel_assign; [srel_upd | split; [exact Hv | reflexivity]].
      * apply mrel_ret. crel_solve.
    + rewrite !tl_match. apply mrel_ret. rewrite (tl_default_crel _ _ Hv). crel_solve.
  - (* NReassign *)
    destruct (core_op op); [apply mrel_ret; crel_solve | apply mrel_fail].
  - (* NFunDef *)
    eapply mrel_bind with (RX := anyrel). { apply mrel_ann. intros i. apply opt_nm_keeps. }
    intros ty1 ty0 _.
    cbn [interface with_last_ret with_assign].
    pose proof Hs as (Hifc & _). rewrite Hifc.
    eapply mrel_bind with (RX := fun d1 d0 : list string * core => fst d1 = fst d0 /\ crel (snd d1) (snd d0)).
    { destruct (interface st0 && match body with Some _ => false | None => true end).
      - binds Hone Hlist Hopt. apply mrel_ret. split; reflexivity.
      - destruct body as [b|]; [|apply mrel_ret; split; reflexivity].
        binds Hone Hlist Hopt. apply mrel_ret. split; [reflexivity | assumption]. }
    intros d1 d0 [Hd1 Hd2].
    eapply mrel_bind; [apply Hone; [size_lia | srel_upd]|]. intros i1 i0 Hi.
    rewrite !id_match. rewrite (id_lit_crel _ _ Hi). destruct (id_lit i0) as [lit|]; [|apply mrel_fail].
    destruct (funop_of lit); apply mrel_ret; [crel_solve | rewrite Hd1; crel_solve].
  - (* NFunArg *)
    eapply mrel_bind with (RX := anyrel). { apply mrel_ann. intros i. apply opt_nm_keeps. }
    intros ty1 ty0 _. same_constructor Hone Hlist Hopt.
  - (* NReturn *)
    cbn [remove_ret with_last_ret with_assign]. pose proof Hs as (_ & _ & _ & _ & _ & Hrr & _).
    rewrite Hrr. destruct (remove_ret st0); [apply Hone; [lia | srel_upd] | same_constructor Hone Hlist Hopt].
  - (* NIfElse *)
    destruct el as [e|]; [|same_constructor Hone Hlist Hopt].
    destruct (match aty with Some _ => true | None => false end && is_valid_in_ternary t e); same_constructor Hone Hlist Hopt.
  - (* NMatch *)
    eapply mrel_bind with (RX := Forall2 crel); [|intros cs1 cs0 Hcs; apply mrel_ret; crel_solve].
    apply mrel_mfiltermap. intros x Hx. pose proof (sizes_in x cases Hx) as Hsx.
    destruct x as [xty xn]. destruct xn; try (apply mrel_ret; reflexivity).
    destruct cond as [cty cn]. destruct cn; try (apply mrel_ret; reflexivity).
    rewrite !size_unfold in Hsx. binds Hone Hlist Hopt.
    apply mrel_ret. unfold orel. cbn [erase_opt]. f_equal. crel_solve.
  - (* NHandle *)
    eapply mrel_bind with
      (RX := fun vt1 vt0 : option core * option core => orel (fst vt1) (fst vt0) /\ snd vt1 = snd vt0).
    { destruct e as [ety en]. destruct en; try (apply mrel_ret; split; reflexivity).
      rewrite size_unfold in *. binds Hone Hlist Hopt. apply mrel_ret.
      split; [unfold orel; cbn [fst erase_opt]; f_equal; assumption | reflexivity]. }
    intros vt1 vt0 [Hvf Hvs]. unfold orel in Hvf.
    eapply mrel_bind; [apply Hone; [lia | srel_upd]|]. intros at1 at0 Hat.
    eapply mrel_bind with (RX := Forall2 crel).
    { apply mrel_mmap. intros x Hx. pose proof (sizes_in x cases Hx) as Hsx.
      destruct x as [xty xn]. destruct xn; try apply mrel_fail.
      destruct cond as [cty cn]. destruct cn; try apply mrel_fail.
      destruct ety as [cty'|]; [|apply mrel_fail].
      rewrite !size_unfold in Hsx.
      eapply mrel_bind; [apply Hone; [lia | srel_upd]|]. intros id1 id0 Hid.
      eapply mrel_bind; [apply mrel_nm|]. intros cl1 cl0 ->.
      eapply mrel_bind.
      { apply Hone; [lia|]. apply srel_assign; [srel_upd|].
        destruct (fst vt1), (fst vt0); cbn [erase_opt] in Hvf; try discriminate Hvf; [|exact I].
        split; [unfold crel; congruence | reflexivity]. }
      intros b1 b0 Hb. apply mrel_ret. rewrite !underscore_match, (is_underscore_crel _ _ Hid).
      destruct (is_underscore id0); crel_solve. }
    intros ex1 ex0 Hex. apply mrel_ret.
    destruct (fst vt1), (fst vt0); cbn [erase_opt] in Hvf; try discriminate Hvf; crel_solve.
  - (* NClass *)
    apply assemble_rel; try assumption; [apply body_stmts_rel; assumption | apply class_def_rel].
  - (* NParent *)
    destruct args as [|x r]; [apply mrel_ret; reflexivity | same_constructor Hone Hlist Hopt].
  - (* NTypeDef *)
    eapply mrel_bind with (RX := Forall2 crel).
    { destruct isa as [nmi|]; [|apply mrel_ret; constructor].
      binds Hone Hlist Hopt. apply mrel_ret. constructor; [reflexivity | constructor]. }
    intros ps1 ps0 Hps. binds Hone Hlist Hopt.
    apply assemble_rel; try assumption; [constructor | apply body_stmts_rel; assumption|].
    intros pn1 bs1 pn0 bs0 Hpn Hbs.
    eapply mrel_bind with (RX := fun l1 l0 : list core => map erase l1 = map erase l0);
      [|intros; apply class_def_rel; assumption].
    destruct abstract_parent; [apply mrel_ret; exact Hpn|].
    binds Hone Hlist Hopt. apply mrel_ret. rewrite !map_app, Hpn. reflexivity.
  - (* NDict *)
    eapply mrel_bind with (RX := Forall2 (fun p1 p0 : core * core => crel (fst p1) (fst p0) /\ crel (snd p1) (snd p0))).
    + apply mrel_mmap. intros kv Hkv. pose proof (sizesp_in kv elements Hkv).
      binds Hone Hlist Hopt. apply mrel_ret. split; assumption.
    + intros l1 l0 Hl. apply mrel_ret. unfold crel in *. cbn [erase]. f_equal.
      induction Hl as [|p1 p0 l1 l0 [Hp1 Hp2] _ IHl]; [reflexivity|]. cbn [map]. rewrite Hp1, Hp2, IHl. reflexivity.
  - (* NListBuilder *)
    destruct conds as [|col rest]; [apply mrel_fail | same_constructor Hone Hlist Hopt].
  - (* NSetBuilder *)
    destruct conds as [|col rest]; [apply mrel_fail | same_constructor Hone Hlist Hopt].
  - (* NDictBuilder *)
    destruct conds as [|col rest]; [apply mrel_fail | same_constructor Hone Hlist Hopt].
  - (* NWith *)
    destruct alias as [al|]; same_constructor Hone Hlist Hopt.
Qed.

Lemma srel0 : srel (state0 true) (state0 false).
Proof. unfold srel. cbn. intuition. Qed.

Theorem conv_inert a :
  match conv a (state0 true) imports0, conv a (state0 false) imports0 with
  | Some (c1, j1), Some (c0, j0) =>
      erase c1 = erase c0 /\ imps j1 = imps j0 /\ nontyping (from_imps j1) = nontyping (from_imps j0)
  | None, None => True
  | _, _ => False
  end.
Proof.
  pose proof (sim a (state0 true) (state0 false) srel0 imports0 imports0 (irel_refl _)) as H.
  destruct (conv a (state0 true) imports0) as [[c1 j1]|], (conv a (state0 false) imports0) as [[c0 j0]|];
    try contradiction; [|exact I].
  destruct H as [Hc [H1 H2]]. repeat split; try assumption. rewrite !from_imps_nontyping, H2. reflexivity.
Qed.

Definition is_typing_import (c : core) : bool :=
  match c with Import (Some (Id f)) _ _ => String.eqb f "typing" | _ => false end.

Definition strip (c : core) : core :=
  match erase c with
  | Block sts => Block (filter (fun s => negb (is_typing_import s)) sts)
  | other => other
  end.

Lemma filter_from_imports m :
  filter (fun s => negb (is_typing_import s)) (map erase (map from_import_core m))
  = map erase (map from_import_core (nontyping m)).
Proof.
  induction m as [|[k [ns al]] m IH]; [reflexivity|].
  cbn [map nontyping filter fst]. unfold from_import_core at 1. cbn [fst snd erase is_typing_import].
  destruct (String.eqb k "typing"); cbn [negb]; [exact IH|].
  cbn [map]. unfold from_import_core at 2. cbn [fst snd erase]. f_equal. exact IH.
Qed.

(** a block's statements; any other tree is one statement *)
Definition stmts_of (c : core) : list core := match c with Block s => s | other => [other] end.
(** the statements of the emitted module: registered imports, then the body *)
Definition module_stmts (c : core) (j : imports) : list core := import_list j ++ stmts_of c.
Definition strip_stmts (l : list core) : list core :=
  filter (fun s => negb (is_typing_import s)) (map erase l).

Lemma stmts_of_erase c : map erase (stmts_of c) = stmts_of (erase c).
Proof. destruct c; reflexivity. Qed.

Lemma gen_is_module ann a :
  gen ann a =
  match conv a (state0 ann) imports0 with
  | Some (c, j) =>
      match c with
      | Block _ => Some (Block (module_stmts c j))
      | _ => if imports_empty j then Some c else Some (Block (module_stmts c j))
      end
  | None => None
  end.
Proof. unfold gen. destruct (conv a (state0 ann) imports0) as [[c j]|]; [|reflexivity]. destruct c; reflexivity. Qed.
