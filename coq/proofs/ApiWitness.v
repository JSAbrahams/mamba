(** * C17 - witnesses: where the API does NOT mirror the definitions, and a non-trivial program where it does *)
From Coq Require Import List String Bool.
From MambaModel Require Import model.Core gen.Names model.Convert model.Api proofs.ApiProps.
Import ListNotations.
Local Open Scope string_scope.

Definition an (n : node) : ast := A None n.
Definition int_ty : nm := NM [TN false "Int" []].
Definition str_ty : nm := NM [TN false "Str" []].
Definition idn (x : string) : ast := A (Some int_ty) (NId x).
Definition arg (x : string) : ast := an (NFunArg false (an (NId x)) (Some int_ty) None).
Definition argd (x : string) (d : ast) : ast := an (NFunArg false (an (NId x)) (Some int_ty) (Some d)).
Definition vararg (x : string) : ast := an (NFunArg true (an (NId x)) (Some int_ty) None).
Definition self_arg : ast := an (NFunArg false (an (NId "self")) None None).
Definition fundef (name : string) (args : list ast) (body : ast) : ast :=
  an (NFunDef (an (NId name)) args (Some int_ty) (Some body)).
Definition absdef (name : string) (args : list ast) : ast :=
  an (NFunDef (an (NId name)) args (Some int_ty) None).
Definition int (s : string) : ast := A (Some int_ty) (NInt s).
Definition field (x : string) (e : ast) : ast := an (NVarDef (an (NId x)) (Some int_ty) (Some e)).
Definition carg (x : string) : ast := an (NVarDef (an (NId x)) (Some int_ty) None).
Definition cls name args parents members : ast := an (NClass name [] args parents (Some (an (NBlock members)))).
(** [def x: Int := match 1 { 1 => v }] *)
Definition mfield (x : string) (v : string) : ast :=
  field x (A (Some int_ty) (NMatch (int "1") [an (NCase (an (NExprType (int "1") None)) (int v))])).

(** ** [size]: renamed where it is defined, not where it is called (D14)

    [def size(x: Int) -> Int => x] followed by the call [size(3)] *)
Definition w_size : ast := an (NBlock [fundef "size" [arg "x"] (idn "x"); an (NCall "size" [] [int "3"])]).

Example size_witness :
  wf_api w_size = true /\
  conv w_size (state0 false) imports0 =
    Some (Block [FunDef [] "__size__" [FunArg false (Id "x") None None] None (Un CuReturn (Id "x"));
                 FunctionCall (Type_ "size" []) [Int "3"]], imports0) /\
  api_src w_size = [SFun ("size", [("x", false, false)])].
Proof. vm_compute. repeat split. Qed.

(** ** Two members of one name: the map keeps the last one only *)

(** [class C { def f(self) -> Int => 1; def f(self, x: Int) -> Int => x }] *)
Definition w_dup : ast :=
  an (NBlock [cls "C" [] [] [fundef "f" [self_arg] (int "1"); fundef "f" [self_arg; arg "x"] (idn "x")]]).
(** [class C { def f(self) -> Int => 1; def f: Int := 2 }]: the method disappears *)
Definition w_shadow : ast :=
  an (NBlock [cls "C" [] [] [fundef "f" [self_arg] (int "1"); field "f" (int "2")]]).

Example duplicate_method_witness :
  option_map (fun x => api_py (fst x)) (conv w_dup (state0 false) imports0)
  = Some [SClass "C" [] None [("f", [("self", false, false); ("x", false, false)])]].
Proof. vm_compute. reflexivity. Qed.

(** ** Several statements that are neither functions nor plain variable definitions share the key ["@"]

    [class C { def x: Int := match 1 ..; def y: Int := match 1 ..; def m(self) -> Int => 1 }]: the
    definition of [x] is gone from the class body (the API of functions and methods is not affected, and
    [wf_api] holds) *)
Definition w_plain : ast :=
  an (NBlock [cls "C" [] [] [mfield "x" "10"; mfield "y" "20"; fundef "m" [self_arg] (int "1")]]).

Lemma plain_statement_dropped :
  wf_api w_plain = true /\
  conv w_plain (state0 false) imports0 =
    Some (Block [ClassDef (Id "C") []
                   (Block [Match (Int "1") [Case (Int "1") (VarDef (Id "y") (Some (Type_ "int" [])) (Some (Int "20")))];
                           FunDef [] "m" [FunArg false (Id "self") None None] None (Un CuReturn (Int "1"))])],
          imports0).
Proof. vm_compute. split; reflexivity. Qed.

(** ** Class arguments next to an explicit constructor are not parameters of [__init__]

    [class C(def a: Int) { def __init__(self, b: Int) -> Int => 1 }] (the checker rejects such a class:
    "Cannot have constructor and class arguments") *)
Definition w_lost : ast :=
  an (NBlock [cls "C" [carg "a"] [] [fundef "__init__" [self_arg; arg "b"] (int "1")]]).

(** ** Non-vacuity: a function with a default and a variadic parameter, an interface, classes with class
    arguments, parents with arguments, several parents, an explicit constructor, an operator and [size] *)
Definition sample : ast := an (NBlock [
  fundef "g" [arg "a"; argd "b" (int "2"); vararg "c"] (idn "a");
  an (NTypeDef "T" [] None (Some (an (NBlock [absdef "area" [self_arg]]))) false);
  cls "P" [carg "a"; an (NFunArg false (an (NId "b")) (Some str_ty) (Some (A (Some str_ty) (NStr "x" false))))] []
      [fundef "get" [self_arg] (int "1")];
  cls "R" [carg "a"; carg "z"] [an (NParent "P" [] [idn "a"; A (Some str_ty) (NStr "k" false)]); an (NParent "T" [] [])]
      [field "w" (int "5"); fundef "area" [self_arg] (int "1"); fundef "__add__" [self_arg; arg "other"] (int "1");
       fundef "size" [self_arg] (int "0")];
  cls "S" [] [an (NParent "P" [] [int "1"])]
      [field "v" (int "2"); fundef "__init__" [self_arg; arg "v"] (int "1")]]).

Example sample_wf : wf_api sample = true. Proof. reflexivity. Qed.

Example sample_api :
  forall ann, option_map (fun x => api_py (fst x)) (conv sample (state0 ann) imports0) =
  Some [SFun ("g", [("a", false, false); ("b", false, true); ("c", true, false)]);
        SClass "T" ["ABC"] None [("area", [("self", false, false)])];
        SClass "P" [] (Some ("__init__", [("self", false, false); ("a", false, false); ("b", false, true)]))
               [("get", [("self", false, false)])];
        SClass "R" ["P"; "T"] (Some ("__init__", [("self", false, false); ("a", false, false); ("z", false, false)]))
               [("area", [("self", false, false)]); ("__add__", [("self", false, false); ("other", false, false)]);
                ("__size__", [("self", false, false)])];
        SClass "S" ["P"] (Some ("__init__", [("self", false, false); ("v", false, false)])) []].
Proof. intros []; vm_compute; reflexivity. Qed.

(** a program without renamed names, for [C17_api_same_names] *)
Definition sample_plain : ast := an (NBlock [
  fundef "g" [arg "a"; argd "b" (int "2"); vararg "c"] (idn "a");
  cls "P" [carg "a"] [] [fundef "get" [self_arg] (int "1"); fundef "__lt__" [self_arg; arg "o"] (int "1")]]).
Example sample_plain_ok :
  wf_api sample_plain = true /\ forallb plain_sig (api_src sample_plain) = true /\
  exists c j, conv sample_plain (state0 true) imports0 = Some (c, j).
Proof. split; [reflexivity|]. split; [vm_compute; reflexivity|]. eexists. eexists. vm_compute. reflexivity. Qed.
