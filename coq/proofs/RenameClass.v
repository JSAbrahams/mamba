(** * Renaming and the insertion of returns / assignments, and the assembly of a class body:
      [ren_core] keeps the constructors of tail position and everything class assembly inspects *)
From Coq Require Import List String Bool.
From MambaModel Require Import model.Core gen.Names model.Convert model.Rename
  proofs.ConvertProps proofs.RenameProps proofs.RenameTypes.
Import ListNotations.
Local Open Scope string_scope.

Section Class.
  Context {rho : string -> string} {rfs : string -> string} {G : Good rho}.
  Notation ren := (ren_core rho rfs).
  Notation ronm := (ren_onm rho).

  Lemma is_tail_ren c : is_tail (ren c) = is_tail c.
  Proof. destruct c; reflexivity. Qed.

  Lemma ren_tmap f f' e : (forall c, is_tail c = false -> ren (f c) = f' (ren c)) ->
    forall c, ren (tmap f e c) = tmap f' (map ren e) (ren c).
  Proof. apply (h_tmap ren is_tail_ren); reflexivity. Qed.

  Lemma append_ret_ren c : append_ret (ren c) = ren (append_ret c).
  Proof.
    rewrite !append_ret_tmap. symmetry. apply (ren_tmap _ _ [Un CuReturn None_]). intros c0 _. unfold ret_leaf.
    rewrite skip_return_ren. destruct (skip_return c0); reflexivity.
  Qed.

  Lemma tleaves_ren : forall c, tleaves (ren c) = map ren (tleaves c).
  Proof.
    assert (Hfm : forall l, Forall (fun c => tleaves (ren c) = map ren (tleaves c)) l ->
                  flat_map tleaves (map ren l) = map ren (flat_map tleaves l)).
    { induction 1 as [|x l Hx _ IH]; [reflexivity|]. cbn [map flat_map]. rewrite Hx, IH, map_app. reflexivity. }
    apply tail_ind; try (intros; assumption).
    - intros c Hc. destruct c; try discriminate Hc; reflexivity.
    - intros l H. cbn [ren_core tleaves]. induction H as [|x l Hx _ IH]; [reflexivity|].
      destruct l; [exact Hx | exact IH].
    - intros c t e Ht He. cbn [ren_core tleaves]. rewrite Ht, He, map_app. reflexivity.
    - intros e cs H. apply Hfm, H.
    - intros s a ex Ha H. cbn [ren_core tleaves]. rewrite Ha, (Hfm _ H), map_app. reflexivity.
  Qed.

  Lemma onm_core_ren n : onm_core (ronm n) = option_map ren (onm_core n).
  Proof. destruct n as [n|]; [|reflexivity]. cbn [ren_onm onm_core option_map]. rewrite (nm_core_ren (rfs:=rfs)). reflexivity. Qed.

  Lemma asg_ren t n c :
    tmap (asg_leaf (ren t) (onm_core (ronm n))) [] (ren c) = ren (tmap (asg_leaf t (onm_core n)) [] c).
  Proof.
    symmetry. apply (ren_tmap _ _ []). intros c0 _. unfold asg_leaf.
    rewrite skip_assign_ren, onm_core_ren. destruct (skip_assign c0); reflexivity.
  Qed.

  Lemma asg_adds_ren n c : asg_adds (ronm n) (tleaves (ren c)) = asg_adds n (tleaves c).
  Proof.
    rewrite tleaves_ren. unfold asg_adds. rewrite !flat_map_concat_map, map_map. f_equal. apply map_ext. intros x.
    rewrite skip_assign_ren. destruct n as [n|]; [|reflexivity]. cbn [ren_onm option_map onm_adds].
    rewrite nm_adds_ren. reflexivity.
  Qed.

  Lemma block_stmts_ren b : block_stmts (ren b) = map ren (block_stmts b).
  Proof. destruct b; reflexivity. Qed.

  Lemma assemble_class_ren stmts args ps :
    assemble_class (map ren stmts) (map ren args) (map ren ps) = option_map (hpair ren) (assemble_class stmts args ps).
  Proof.
    assert (Hs : rho n_self_ = n_self_) by (apply fx; in_list).
    assert (Hi : rho n_init = n_init) by (apply fx; in_list).
    assert (Hat : rho "@" = "@") by (apply fx; in_list).
    apply (assemble_class_hom ren key_eqb_ren);
      try (intros c; destruct c; reflexivity); cbn [ren_core self_assign map]; rewrite ?Hs, ?Hi; try reflexivity.
    - (* h_parent_name *) intros p. destruct p; try reflexivity. cbn [ren_core parent_name].
      match goal with |- context [match ren ?f with _ => _ end] => destruct f; reflexivity end.
    - (* h_parent_init *) intros p Hp. destruct p; try (exfalso; apply Hp; reflexivity).
      + match goal with H : parent_name (FunctionCall ?f _) <> None |- _ => destruct f; try (exfalso; apply H; reflexivity) end.
        rewrite ren_call by reflexivity. unfold parent_init. cbn [ren_core fst snd map]. rewrite Hs, Hi. reflexivity.
      + unfold parent_init. cbn [ren_core fst snd map]. rewrite Hs, Hi. reflexivity.
    - (* h_self_arg *) intros x. destruct x; try reflexivity. cbn [ren_core self_arg].
      match goal with |- context [match ren ?v with _ => _ end] => destruct v; try reflexivity end.
      apply eqb_const. in_list.
    - (* h_stmt_entry *) intros i s. destruct s; unfold hentry, hvalue; cbn [ren_core stmt_entry fst snd]; rewrite ?Hat; try reflexivity.
      match goal with |- context [funop_name ?o] => rewrite (Hfix (funop_name o) (in_funop o)) end. reflexivity.
  Qed.
End Class.
