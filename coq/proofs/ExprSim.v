(** For every expression built from literals (strings not interpolated), identifiers the name table leaves
    alone, tuples, lists, indexing, the strict operators, [and]/[or], the unary operators and ranges whose step,
    if the range is inclusive, is absent or a positive literal (no calls, no [?], no [sqrt]):
    - [conv_pure]: the desugaring is the structural translation [tr] and registers no import;
    - [pure_sim]: whenever the reference semantics gives a value or raises a (non-internal)
      exception, the model of Python gives the same value / raises the same exception on the
      translated expression, in every environment with the same variables, for every fuel at
      least twice as large; neither side changes the environment. *)
From Coq Require Import List String Bool ZArith Lia.
Local Open Scope string_scope.
From MambaModel Require Import model.Core gen.Names model.SemDom model.Convert model.PySem model.PyEval model.MEval.
From MambaModel Require Import proofs.ConvUnfold proofs.ConvertProps proofs.MEvalProps.
Import ListNotations.

Definition pure_op (o : nbin) : bool :=
  match nbin_sop o with Some _ => true | None => match o with SAnd | SOr => true | _ => false end end.
Definition is_sqrt (o : nun) : bool := match o with SSqrt => true | _ => false end.

(** the step of an INCLUSIVE range must be absent or a positive integer literal (with a negative step the emitted
    end is wrong: finding D71) *)
Definition positive_literal (a : ast) : bool :=
  match a with
  | A _ (NInt s) => match z_of_string s with Some z => Z.ltb 0 z | None => false end
  | _ => false
  end.

Fixpoint pure (a : ast) : bool :=
  match a with A _ nd =>
  match nd with
  | NInt _ | NBool _ | NUndefined => true
  | NStr _ false => true
  | NId x => String.eqb (concrete_to_python x) x
  | NExprType x _ => pure x
  | NTuple es | NList es => forallb pure es
  | NBin o l r => pure_op o && pure l && pure r
  | NUn o x => negb (is_sqrt o) && pure x
  | NIndex x y => pure x && pure y
  | NRange from to incl step =>
      pure from && pure to
      && match step with
         | None => true
         | Some st => pure st && (negb incl || positive_literal st)
         end
  | _ => false
  end end.

Fixpoint tr (b : bool) (a : ast) : core :=
  match a with A _ nd =>
  match nd with
  | NInt s => Int s | NBool x => Bool x | NUndefined => None_ | NStr s _ => Str s
  | NId x => Id x
  | NExprType x _ => tr b x
  | NTuple es => if b then TupleLiteral (map (tr b) es) else Tuple (map (tr b) es)
  | NList es => List_ (map (tr b) es)
  | NBin o l r => bin_core o (tr b l) (tr b r)
  | NUn o x => un_core o (tr b x)
  | NIndex x y => Index (tr b x) (tr b y)
  | NRange from to incl step =>
      FunctionCall (Id n_range)
        [tr b from; if incl then Bin CbAdd (tr b to) (Int "1") else tr b to;
         match step with Some st => tr b st | None => Int "1" end]
  | _ => Empty
  end end.

Definition env_rel (em : menv) (ep : penv) : Prop := forall x, lookup_var x em = lookup_var x ep.

Notation mev0 := (mev_dev false false).

Definition Good (f g : nat) (b : bool) (a : ast) : Prop :=
  forall em ep, env_rel em ep ->
    (forall v em', mev0 f a em = MVal (Some v) em' -> em' = em /\ cexpr g (tr b a) ep = (inl v, ep))
    /\ (forall x em', mev0 f a em = MExc x em' -> is_internal x = false ->
                      em' = em /\ cexpr g (tr b a) ep = (inr x, ep)).

Lemma mev_bin_strict f ty o so l r em :
  nbin_sop o = Some so ->
  mev0 (S f) (A ty (NBin o l r)) em
  = mval (mev0 f) l em (fun x e1 => mval (mev0 f) r e1 (fun y e2 => of_result (sbin so x y, e2))).
Proof. destruct o; cbn; intros H; try discriminate H; injection H as <-; reflexivity. Qed.

Lemma cexpr_bin_strict g c so cl cr ep :
  cbin_sop c = Some so ->
  cexpr (S g) (Bin c cl cr) ep
  = match cexpr g cl ep with
    | (inl a, e1) => match cexpr g cr e1 with (inl b0, e2) => (sbin so a b0, e2) | other => other end
    | other => other
    end.
Proof. destruct c; cbn; intros H; try discriminate H; injection H as <-; reflexivity. Qed.

Lemma mval_val ev a e k v e1 : ev a e = MVal (Some v) e1 -> mval ev a e k = k v e1.
Proof. unfold mval; intros ->; reflexivity. Qed.
Lemma mval_exc ev a e k x e1 : ev a e = MExc x e1 -> mval ev a e k = MExc x e1.
Proof. unfold mval; intros ->; reflexivity. Qed.

(** the relation between the two results: same value / same exception, environments unchanged;
    an internal failure of the reference semantics (unsupported, out of fuel) claims nothing *)
Definition Rel (em : menv) (ep : penv) (r : mres) (c : (value + value) * penv) : Prop :=
  match r with
  | MVal (Some v) e' => e' = em /\ c = (inl v, ep)
  | MExc x e' => is_internal x = true \/ (e' = em /\ c = (inr x, ep))
  | _ => False
  end.

Definition Sim (f g : nat) (b : bool) (a : ast) : Prop :=
  forall em ep, env_rel em ep -> Rel em ep (mev0 f a em) (cexpr g (tr b a) ep).

Lemma rel_of_result em ep r : Rel em ep (of_result (r, em)) (r, ep).
Proof. destruct r as [v|x]; cbn; [split; reflexivity | right; split; reflexivity]. Qed.

Lemma rel_unsup em ep e' c : Rel em ep (munsup e') c.
Proof. cbn. left. reflexivity. Qed.

(** the relation passes through the two ways of sequencing: [mval] and a match on the result *)
Lemma rel_mval f g em ep a ca k (kc : value -> penv -> (value + value) * penv) :
  Rel em ep (mev0 f a em) (cexpr g ca ep) ->
  (forall v, Rel em ep (k v em) (kc v ep)) ->
  Rel em ep (mval (mev0 f) a em k)
            (match cexpr g ca ep with (inl v, e1) => kc v e1 | other => other end).
Proof.
  unfold mval. destruct (mev0 f a em) as [[v|] e1 | v e1 | x e1 | e1 | e1]; cbn; intros H Hk; try contradiction.
  - destruct H as [-> ->]. apply Hk.
  - destruct H as [I | [-> ->]]; [left; exact I | right; split; reflexivity].
Qed.

Lemma rel_mvals f g b es em ep k (kc : list value -> penv -> (value + value) * penv) :
  (forall x, In x es -> Sim f g b x) -> env_rel em ep ->
  (forall vs, Rel em ep (k vs em) (kc vs ep)) ->
  Rel em ep (mvals (mev0 f) es em k)
            (match eval_list (cexpr g) (map (tr b) es) ep with
             | (inl vs, e1) => kc vs e1 | (inr x, e1) => (inr x, e1) end).
Proof.
  intros Hall R. revert k kc. induction es as [|a r IH]; intros k kc Hk; cbn [mvals map eval_list].
  - apply Hk.
  - pose proof (Hall a (or_introl eq_refl) em ep R) as Ha. unfold mval.
    destruct (mev0 f a em) as [[v|] e1 | v e1 | x e1 | e1 | e1]; cbn in Ha; try contradiction.
    + destruct Ha as [-> ->].
      specialize (IH (fun x Hx => Hall x (or_intror Hx)) (fun vs => k (v :: vs)) (fun vs => kc (v :: vs))
                     (fun vs => Hk (v :: vs))).
      destruct (eval_list (cexpr g) (map (tr b) r) ep) as [[vs|x] e2]; exact IH.
    + destruct Ha as [I | [-> ->]]; [left; exact I | right; split; reflexivity].
Qed.

Lemma cexpr_un g o x ep :
  is_sqrt o = false ->
  cexpr (S g) (un_core o x) ep
  = match cexpr g x ep with
    | (inl v, e1) =>
        (sun match o with SAddU => UPos | SSubU => UNeg | SBOneCmpl => UInv | _ => UNot end v, e1)
    | other => other
    end.
Proof. destruct o; cbn; intro H; try discriminate H; reflexivity. Qed.

(** the call of [range] that a range is turned into, its arguments evaluated one after the other *)
Lemma cexpr_range g (incl : bool) a1 a2 a3 ep :
  cexpr (S (S (S g))) (FunctionCall (Id n_range) [a1; if incl then Bin CbAdd a2 (Int "1") else a2; a3]) ep
  = match cexpr (S (S g)) a1 ep with
    | (inl v1, e1) =>
        match cexpr (if incl then S g else S (S g)) a2 e1 with
        | (inl v2, e2) =>
            match (if incl then sbin OAdd v2 (VInt 1) else inl v2) with
            | inl w =>
                match cexpr (S (S g)) a3 e2 with (inl v3, e3) => (mk_range [v1; w; v3], e3) | other => other end
            | inr x => (inr x, e2)
            end
        | other => other
        end
    | other => other
    end.
Proof.
  change (cexpr (S (S (S g))) (FunctionCall (Id n_range) ?l) ep)
    with (match eval_list (cexpr (S (S g))) l ep with (inl vs, e1) => (mk_range vs, e1) | (inr x, e1) => (inr x, e1) end).
  cbn [eval_list]. destruct (cexpr (S (S g)) a1 ep) as [[v1|x] e1]; [|reflexivity].
  destruct incl; [rewrite (cexpr_bin_strict (S g) CbAdd OAdd _ _ e1 eq_refl)|].
  all: destruct (cexpr _ a2 e1) as [[v2|x] e2]; [|reflexivity].
  1: change (cexpr (S g) (Int "1") e2) with (@inl value value (VInt 1), e2). cbv beta iota.
  1: destruct (sbin OAdd v2 (VInt 1)) as [w|x]; [|reflexivity].
  all: destruct (cexpr (S (S g)) a3 e2) as [[v3|x] e3]; reflexivity.
Qed.

(* twice the fuel: one level of the reference evaluator becomes at most two in Python, at the [to + 1]
   inside the call of [range] that an inclusive range is turned into *)
Theorem pure_sim : forall f a, pure a = true -> forall b g, 2 * f <= g -> Sim f g b a.
Proof.
  induction f as [|f IH]; intros a Hp b g Hg em ep R.
  { cbn. left. reflexivity. }
  destruct g as [|g]; [lia|]. assert (Hg' : 2 * f <= g) by lia.
  assert (Hall : forall es, forallb pure es = true -> forall x, In x es -> Sim f g b x).
  { intros es H x Hx. apply IH; [|exact Hg']. rewrite forallb_forall in H. apply H, Hx. }
  destruct a as [ty nd]. destruct nd; cbn [pure] in Hp; try discriminate Hp.
  - (* NInt *) cbn. destruct (z_of_string s); cbn; [split; reflexivity | left; reflexivity].
  - (* NStr *) destruct interpolated; [discriminate Hp|]. cbn.
    destruct (plain_text s); cbn; [split; reflexivity | left; reflexivity].
  - (* NBool *) cbn. split; reflexivity.
  - (* NId *) apply String.eqb_eq in Hp. cbn. rewrite <- (R s).
    destruct (lookup_var s em); cbn; [split; reflexivity|].
    destruct (String.eqb s "None"); cbn; [split; reflexivity | left; reflexivity].
  - (* NUndefined *) cbn. split; reflexivity.
  - (* NBin *)
    apply andb_true_iff in Hp. destruct Hp as [Hp Hr]. apply andb_true_iff in Hp. destruct Hp as [Ho Hl].
    pose proof (IH l Hl b g Hg' em ep R) as Sl.
    pose proof (IH r Hr b g Hg' em ep R) as Sr.
    unfold pure_op in Ho. destruct (nbin_sop o) as [so|] eqn:Eso.
    + destruct (strict_operator_table o so Eso) as [c [Hc Hso]].
      rewrite (mev_bin_strict f ty o so l r em Eso).
      cbn [tr]. rewrite Hc, (cexpr_bin_strict g c so _ _ ep Hso).
      apply rel_mval; [exact Sl|]. intro x. apply rel_mval; [exact Sr|]. intro y. apply rel_of_result.
    + (* and, or: the reference semantics wants a boolean on the left *)
      destruct o; try discriminate Ho; try discriminate Eso;
        cbn [tr bin_core mev_dev mev1 cexpr cexpr1]; (apply rel_mval; [exact Sl|]);
        intro v; destruct v; try apply rel_unsup; destruct b0; cbn [truthy]; first [exact Sr | split; reflexivity].
  - (* NUn *)
    apply andb_true_iff in Hp. destruct Hp as [Ho Hx]. apply negb_true_iff in Ho.
    pose proof (IH e Hx b g Hg' em ep R) as Sx.
    cbn [tr]. rewrite (cexpr_un g o _ ep Ho).
    destruct o; try discriminate Ho; cbn [mev_dev mev1]; (apply rel_mval; [exact Sx|]); intro v;
      try apply rel_of_result.
    (* not *)
    destruct v; try apply rel_unsup. cbn. split; reflexivity.
  - (* NTuple *)
    cbn [mev_dev mev1 tr]. destruct b; cbn [cexpr cexpr1]; apply (rel_mvals _ _ _ _ _ _ _ _ (Hall es Hp) R);
      intro vs; split; reflexivity.
  - (* NList *)
    cbn [mev_dev mev1 tr cexpr cexpr1]. apply (rel_mvals _ _ _ _ _ _ _ _ (Hall es Hp) R). intro vs. split; reflexivity.
  - (* NIndex *)
    apply andb_true_iff in Hp. destruct Hp as [Hi Hr].
    cbn [tr mev_dev mev1 cexpr cexpr1].
    apply rel_mval; [apply (IH item Hi b g Hg' em ep R)|]. intro x.
    apply rel_mval; [apply (IH range Hr b g Hg' em ep R)|]. intro y. apply rel_of_result.
  - (* NRange *)
    apply andb_true_iff in Hp. destruct Hp as [Hp Hstep]. apply andb_true_iff in Hp. destruct Hp as [Hfrom Hto].
    cbn [tr mev_dev mev1].
    destruct f as [|f']; [left; reflexivity|].
    destruct g as [|[|g3]]; [lia | lia |]. rewrite cexpr_range.
    apply rel_mval; [apply (IH from Hfrom b _ Hg' em ep R)|]. intro va.
    apply rel_mval; [apply (IH to Hto b); [destruct incl; lia | exact R]|]. intro vb.
    destruct incl; cbn [andb].
    + (* inclusive: the end must be an integer, the step is absent or a positive literal *)
      destruct vb as [zb| | | | | | | |]; try apply rel_unsup.
      destruct step as [[sty sn]|].
      * apply andb_true_iff in Hstep. destruct Hstep as [_ Hpos].
        destruct sn; try discriminate Hpos. unfold mval. cbn in Hpos |- *.
        destruct (z_of_string s) as [zs|]; [|discriminate Hpos]. cbn.
        destruct va; try apply rel_unsup.
        destruct (Z.eqb_spec zs 0) as [->|_]; [discriminate Hpos|].
        unfold range_end. rewrite Hpos. split; reflexivity.
      * cbn. destruct va; try apply rel_unsup. split; reflexivity.
    + destruct step as [st|].
      * apply andb_true_iff in Hstep. destruct Hstep as [Hst _].
        apply rel_mval; [apply (IH st Hst b _ Hg' em ep R)|]. intro vs.
        destruct va; try apply rel_unsup. destruct vb; try apply rel_unsup. destruct vs; try apply rel_unsup.
        cbn [mk_range]. destruct (Z.eqb _ 0); [apply rel_unsup | split; reflexivity].
      * cbn. destruct va; try apply rel_unsup. destruct vb; try apply rel_unsup. split; reflexivity.
  - (* NExprType *)
    cbn [tr mev_dev mev1].
    apply (IH e Hp b (S g)); [lia | exact R].
Qed.

Definition plain (st : state) : Prop := assign_to st = None /\ last_ret st = false.

Lemma mmap_pure (b : bool) (st : state) (i : imports) (es : list ast) :
  (forall x, In x es -> conv x st i = Some (tr b x, i)) ->
  mmap (fun x => conv x st) es i = Some (map (tr b) es, i).
Proof.
  induction es as [|a r IH]; intro H; [reflexivity|].
  cbn [mmap map]. unfold bind, ret. rewrite (H a (or_introl eq_refl)).
  fold (mmap (fun x => conv x st) r). rewrite IH; [reflexivity|].
  intros x Hx. apply H. right. exact Hx.
Qed.

Lemma plain_norm st : plain st -> with_last_ret (with_assign st None) false = st.
Proof. destruct st; intros [H1 H2]; cbn in *; subst; reflexivity. Qed.

Lemma conv_pure : forall n a, size a <= n -> pure a = true ->
  forall st i, plain st -> conv a st i = Some (tr (tup_lit st) a, i).
Proof.
  induction n as [|n IH]; intros a Hn Hp st i Pst.
  { destruct a; rewrite size_unfold in Hn; lia. }
  destruct a as [ty nd]. rewrite size_unfold in Hn.
  pose proof Pst as [Ha Hl].
  rewrite (conv_result_clean _ _ _ Ha Hl). unfold conv_result. cbv zeta. rewrite (plain_norm st Pst).
  set (s_tl := tup_lit st).
  assert (Hall : forall es, sizes es <= n -> forallb pure es = true ->
                 mmap (fun x => conv x st) es i = Some (map (tr s_tl) es, i)).
  { intros es Hsz H. apply mmap_pure. intros x Hx. apply (IH x); [pose proof (sizes_in x es Hx); lia | | exact Pst].
    rewrite forallb_forall in H. apply H, Hx. }
  unfold bind, ret.
  destruct nd; cbn [pure] in Hp; try discriminate Hp.
  - reflexivity.
  - destruct interpolated; [discriminate Hp | reflexivity].
  - reflexivity.
  - apply String.eqb_eq in Hp. cbn [tr]. rewrite Hp. reflexivity.
  - reflexivity.
  - apply andb_true_iff in Hp. destruct Hp as [Hp Hr]. apply andb_true_iff in Hp. destruct Hp as [_ Hl'].
    rewrite (IH l ltac:(lia) Hl' st i Pst), (IH r ltac:(lia) Hr st i Pst). reflexivity.
  - apply andb_true_iff in Hp. destruct Hp as [Ho Hx]. apply negb_true_iff in Ho.
    destruct o; try discriminate Ho; rewrite (IH e ltac:(lia) Hx st i Pst); reflexivity.
  - rewrite (Hall es ltac:(lia) Hp). cbn [tr]. subst s_tl. destruct (tup_lit st); reflexivity.
  - rewrite (Hall es ltac:(lia) Hp). reflexivity.
  - apply andb_true_iff in Hp. destruct Hp as [Hi Hr].
    rewrite (IH item ltac:(lia) Hi st i Pst), (IH range ltac:(lia) Hr st i Pst). reflexivity.
  - apply andb_true_iff in Hp. destruct Hp as [Hp Hstep]. apply andb_true_iff in Hp. destruct Hp as [Hfrom Hto].
    rewrite (IH from ltac:(lia) Hfrom st i Pst), (IH to ltac:(lia) Hto st i Pst).
    destruct step as [sp|].
    + apply andb_true_iff in Hstep. destruct Hstep as [Hsp _].
      cbn [sizeo] in Hn. rewrite (IH sp ltac:(lia) Hsp st i Pst). reflexivity.
    + reflexivity.
  - rewrite (IH e ltac:(lia) Hp (with_expand st true) i ltac:(destruct st; cbn in *; split; assumption)).
    subst s_tl. destruct st; reflexivity.
Qed.

Theorem pure_expr_correct a st i c i' :
  pure a = true -> plain st -> conv a st i = Some (c, i') ->
  i' = i /\ forall f g em ep, 2 * f <= g -> env_rel em ep -> Rel em ep (mev f a em) (cexpr g c ep).
Proof.
  intros Hp Hs Hc. rewrite (conv_pure (size a) a (le_n _) Hp st i Hs) in Hc.
  injection Hc as <- <-. split; [reflexivity|].
  intros f g em ep Hfg R. apply pure_sim; assumption.
Qed.

Corollary pure_expr_converts a st i :
  pure a = true -> plain st -> exists c, conv a st i = Some (c, i).
Proof. intros Hp Hs. eexists. apply (conv_pure (size a) a (le_n _) Hp st i Hs). Qed.

(** non-vacuity: [((1 + x) * [2, 3][0] < 7) and not b] is pure, converts, and both sides compute [True] *)
Definition sample_pure : ast :=
  let lit s := A None (NInt s) in
  A None (NBin SAnd
    (A None (NBin SLe
       (A None (NBin SMul (A None (NBin SAdd (lit "1") (A None (NId "x"))))
                          (A None (NIndex (A None (NList [lit "2"; lit "3"])) (lit "0")))))
       (lit "7")))
    (A None (NUn SNot (A None (NId "b"))))).
Definition sample_env {B} : env B := set_var "b" (VBool false) (set_var "x" (VInt 2) env0).

Example sample_pure_ok :
  pure sample_pure = true
  /\ plain (state0 false)
  /\ (forall x, lookup_var x (@sample_env ast) = lookup_var x (@sample_env core))
  /\ mev 20 sample_pure sample_env = MVal (Some (VBool true)) sample_env
  /\ exists c, conv sample_pure (state0 false) imports0 = Some (c, imports0)
               /\ cexpr 20 c sample_env = (inl (VBool true), sample_env).
Proof.
  split; [reflexivity|]. split; [split; reflexivity|]. split; [intro x; reflexivity|].
  split; [vm_compute; reflexivity|].
  eexists. split; [vm_compute; reflexivity | vm_compute; reflexivity].
Qed.

(** an inclusive stepped range inside a membership test: [4 in 0 ..= 4 .. 2] *)
Definition sample_range : ast :=
  let lit s := A None (NInt s) in
  A None (NBin SIn (lit "4") (A None (NRange (lit "0") (lit "4") true (Some (lit "2"))))).
Example sample_range_ok :
  pure sample_range = true
  /\ mev 10 sample_range (@env0 ast) = MVal (Some (VBool true)) env0
  /\ exists c, conv sample_range (state0 true) imports0 = Some (c, imports0)
               /\ cexpr 20 c (@env0 core) = (inl (VBool true), env0).
Proof.
  split; [reflexivity|]. split; [vm_compute; reflexivity|].
  eexists. split; [vm_compute; reflexivity | vm_compute; reflexivity].
Qed.
