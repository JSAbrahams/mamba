(** [plines_layout]: for every statement [c] whose suites are non-empty and whose decorated
    functions sit at level 1 ([wfl]), the lines printed for [c] at level [ind] are accepted by
    [layout_ok] from any state that is ready for a statement at that level, and leave a state that
    is ready for the next one ([Good]). *)
From Coq Require Import List String Bool Arith Lia.
From MambaModel Require Import model.PyExpr model.CoreExpr gen.PrinterTable model.Core model.PyStmt
  proofs.PrinterProps proofs.PrinterTableOk proofs.PlinesUnfold.
Import ListNotations.


Fixpoint desc (st : list nat) : Prop :=
  match st with
  | [] => True
  | x :: r => match r with [] => True | y :: _ => y < x end /\ desc r
  end.

Lemma pop_to_found above n below :
  Forall (fun m => n < m) above -> pop_to n (above ++ n :: below) = Some (n :: below).
Proof.
  induction 1 as [|m above Hm _ IH]; cbn [app pop_to].
  - rewrite Nat.eqb_refl. reflexivity.
  - replace (Nat.eqb n m) with false by (symmetry; apply Nat.eqb_neq; lia).
    replace (Nat.ltb n m) with true by (symmetry; apply Nat.ltb_lt; lia). exact IH.
Qed.

Lemma desc_cons_app above n below :
  Forall (fun m => n < m) above -> desc (above ++ n :: below) -> desc (n :: below).
Proof. intros _. induction above as [|x a IH]; [easy|]. intros [_ H]. exact (IH H). Qed.

(* [desc]: the open levels are strictly decreasing; it is handed on from statement to statement, no step
   below depends on it *)
Definition Good (ls : list pline) (n : nat) : Prop :=
  forall st hdr below rest,
    enter st hdr n = Some (n :: below) -> desc (n :: below) ->
    exists above,
      Forall (fun m => n < m) above /\ desc (above ++ n :: below)
      /\ layout_ok st hdr (ls ++ rest) = layout_ok (above ++ n :: below) false rest.

Lemma Good_single n ts : ends_colon ts = false -> Good [(n, ts)] n.
Proof.
  intros Hc st hdr below rest He Hd. exists []. cbn [app]. split; [constructor|]. split; [exact Hd|].
  cbn [layout_ok]. rewrite He, Hc. reflexivity.
Qed.

Lemma Good_app a b n : Good a n -> Good b n -> Good (a ++ b) n.
Proof.
  intros Ha Hb st hdr below rest He Hd.
  destruct (Ha st hdr below (b ++ rest) He Hd) as (ab & Fa & Da & Ea).
  assert (He' : enter (ab ++ n :: below) false n = Some (n :: below)) by (cbn [enter]; apply pop_to_found, Fa).
  destruct (Hb _ false below rest He' Hd) as (ab' & Fb & Db & Eb).
  exists ab'. split; [exact Fb|]. split; [exact Db|]. rewrite <- app_assoc, Ea, Eb. reflexivity.
Qed.

Lemma Good_header_suite n ts ls :
  ends_colon ts = true -> Good ls (n + 4) -> Good ((n, ts) :: ls) n.
Proof.
  intros Hc Hs st hdr below rest He Hd.
  assert (He' : enter (n :: below) true (n + 4) = Some ((n + 4) :: n :: below)).
  { cbn [enter]. replace (Nat.ltb n (n + 4)) with true by (symmetry; apply Nat.ltb_lt; lia). reflexivity. }
  assert (Hd' : desc ((n + 4) :: n :: below)) by (split; [lia | exact Hd]).
  destruct (Hs (n :: below) true (n :: below) rest He' Hd') as (ab & Fa & Da & Ea).
  exists (ab ++ [n + 4]). split; [|split].
  - apply Forall_app. split; [|constructor; [lia | constructor]]. revert Fa. apply Forall_impl. intros m Hm. lia.
  - rewrite <- app_assoc. exact Da.
  - cbn [app layout_ok]. rewrite He, Hc, Ea, <- app_assoc. reflexivity.
Qed.

Lemma Good_concat (lss : list (list pline)) n :
  lss <> [] -> Forall (fun ls => Good ls n) lss -> Good (List.concat lss) n.
Proof.
  intros Hne H. induction H as [|ls lss Hl Hr IH]; [contradiction|].
  destruct lss as [|ls2 lss]; cbn [List.concat].
  - rewrite app_nil_r. exact Hl.
  - apply Good_app; [exact Hl | apply IH; discriminate].
Qed.

Lemma Good_module ls : Good ls 0 -> module_layout_ok ls = true.
Proof.
  intros H. unfold module_layout_ok.
  destruct (H [0] false [] [] eq_refl (conj I I)) as (ab & _ & _ & E). rewrite app_nil_r in E. rewrite E. reflexivity.
Qed.

Section EndsWith.
  Context {X : Type} (P : X -> Prop).
  Definition ends_with (l : list X) : Prop := exists i x, l = i ++ [x] /\ P x.
  Lemma ends_app a b : ends_with b -> ends_with (a ++ b).
  Proof. intros (i & x & -> & H). exists (a ++ i), x. rewrite app_assoc. split; [reflexivity | exact H]. Qed.
  Lemma ends_cons x b : ends_with b -> ends_with (x :: b).
  Proof. apply (ends_app [x]). Qed.
  Lemma ends_snoc a x : P x -> ends_with (a ++ [x]).
  Proof. intros H. exists a, x. split; [reflexivity | exact H]. Qed.
  Lemma ends_one x : P x -> ends_with [x].
  Proof. apply (ends_snoc []). Qed.
End EndsWith.

Local Notation pt := (ptoks canon).
Local Notation op := (operand canon).
Definition tlast : list tok -> Prop := ends_with (fun t => t <> TColon).
Definition slast : list stok -> Prop := ends_with (fun x => x <> E TColon).

Lemma op_last e : tlast (pt e) -> tlast (op e).
Proof.
  intros H. destruct (canon_compound (kind_of e)) eqn:Hc.
  - rewrite (op_compound e Hc). apply ends_cons, ends_snoc. discriminate.
  - rewrite (op_simple e Hc). exact H.
Qed.

Lemma pt_last : forall e, tlast (pt e).
Proof.
  induction e using cexpr_mut with (P0 := fun _ => True); try exact I;
    try (apply ends_one; discriminate).
  - destruct b; apply ends_one; discriminate.
  - apply (ends_snoc _ [TLPar; TNum n; TStar; TNum "10"%string; TDStar; TNum e] TRPar). discriminate.
  - rewrite pt_bin. apply ends_app, ends_app, op_last, IHe2.
  - rewrite pt_un. apply ends_cons, op_last, IHe.
  - rewrite pt_isa. apply ends_cons, ends_cons, ends_snoc. discriminate.
  - rewrite pt_sqrt. do 4 apply ends_cons. apply ends_snoc. discriminate.
  - rewrite pt_ternary. apply ends_app, ends_cons, ends_app, ends_cons, op_last, IHe3.
  - rewrite pt_lambda. apply ends_cons, ends_app, ends_cons, IHe.
  - rewrite pt_call. apply ends_app, ends_cons, ends_snoc. discriminate.
  - rewrite pt_index. apply ends_app, ends_cons, ends_snoc. discriminate.
  - rewrite pt_prop. apply ends_app, ends_cons, IHe2.
  - rewrite pt_tuple. apply ends_cons, ends_snoc. discriminate.
  - rewrite pt_list. apply ends_cons, ends_snoc. discriminate.
  - rewrite pt_set. apply ends_cons, ends_snoc. discriminate.
Qed.

Lemma ends_colon_snoc ts x : ends_colon (ts ++ [x]) = match x with E TColon => true | _ => false end.
Proof. unfold ends_colon. rewrite rev_app_distr. cbn. destruct x as [t|s]; [destruct t|]; reflexivity. Qed.

Lemma slast_ends ts : slast ts -> ends_colon ts = false.
Proof.
  intros (i & x & -> & H). rewrite ends_colon_snoc.
  destruct x as [t|s]; [destruct t|]; try reflexivity. contradiction H. reflexivity.
Qed.

Lemma etoks_last c ts : etoks c = Some ts -> slast ts.
Proof.
  unfold etoks. destruct (to_cexpr c) as [e|]; [|discriminate]. destruct (wf e); [|discriminate].
  intros [= <-]. rewrite (proj1 (ptoks_ext generated generated_ok)).
  destruct (pt_last e) as (i & t & -> & Ht). rewrite map_app. apply ends_snoc. congruence.
Qed.

Definition ne_lines (o : option (list pline)) : bool :=
  match o with Some (_ :: _) => true | _ => false end.

Definition suite_lines (b : core) (ind : nat) : option (list pline) :=
  match b with
  | Block [] => Some [(4 * S ind, [K "pass"%string])]
  | _ => plines b (S ind)
  end.

(* a decorator line is printed at column [4 * ind + 4 * (ind - 1)], which is the column [4 * ind] of the
   [def] below it only for [ind = 1] *)
Fixpoint wfl (c : core) (ind : nat) {struct c} : bool :=
  let block (sts : list core) (ind : nat) : bool :=
    (fix go (l : list core) : bool := match l with [] => true | s :: r => wfl s ind && go r end) sts in
  let suite (b : core) : bool :=
    ne_lines (suite_lines b ind)
    && match b with Block sts => block sts (S ind) | other => wfl other (S ind) end in
  match c with
  | Block sts => block sts ind
  | If _ t => suite t
  | IfElse _ t e => suite t && suite e
  | While _ b | For _ _ b | With _ b | WithAs _ _ b | Case _ b | Except _ b | ExceptId _ _ b
  | ClassDef _ _ b | FunDefOp _ _ _ b => suite b
  | FunDef dec _ _ _ b => (match dec with [] => true | _ => Nat.eqb ind 1 end) && suite b
  | TryExcept setup a ex =>
      (match setup with Some s => wfl s ind | None => true end) && suite a && block ex ind
  | Match _ cases =>
      ne_lines (plines (Block cases) (S ind)) && block cases (S ind)
  | _ => true
  end.

Definition blines (sts : list core) (ind : nat) : option (list pline) :=
  (fix go (l : list core) : option (list pline) :=
     match l with
     | [] => Some []
     | s :: r => match plines s ind, go r with Some a, Some b => Some (a ++ b) | _, _ => None end
     end) sts.
Definition bwfl (sts : list core) (ind : nat) : bool :=
  (fix go (l : list core) : bool := match l with [] => true | s :: r => wfl s ind && go r end) sts.

Definition body_of (c : core) : option core :=
  match c with
  | If _ b | While _ b | For _ _ b | With _ b | WithAs _ _ b | Case _ b | Except _ b | ExceptId _ _ b
  | ClassDef _ _ b | FunDefOp _ _ _ b | FunDef _ _ _ _ b => Some b
  | _ => None
  end.

Definition kids (c : core) : list core :=
  match c with
  | Block l | Match _ l => l
  | IfElse _ t e => [t; e]
  | TryExcept setup a ex => a :: ex ++ match setup with Some s => [s] | None => [] end
  | _ => match body_of c with Some b => [b] | None => [] end
  end.

Lemma core_kids_ind (P : core -> Prop) :
  (forall c, (forall b, In b (kids c) -> P b) -> P c) -> forall c, P c.
Proof.
  intros H. fix IH 1. intros c. apply H. apply Forall_forall.
  assert (L : forall l, (forall x, In x l -> P x) -> Forall P l) by (intros l; apply Forall_forall).
  destruct c; cbn [kids body_of]; repeat constructor; try apply IH.
  - induction statements; constructor; [apply IH | assumption].
  - induction cases; constructor; [apply IH | assumption].
  - apply Forall_app. split.
    + induction except; constructor; [apply IH | assumption].
    + destruct setup; repeat constructor. apply IH.
Qed.

Definition Claim (c : core) : Prop :=
  forall ind ls, plines c ind = Some ls -> wfl c ind = true -> ls = [] \/ Good ls (4 * ind).

Lemma Good_or_app a b n : (a = [] \/ Good a n) -> (b = [] \/ Good b n) -> (a ++ b = [] \/ Good (a ++ b) n).
Proof.
  intros [-> | Ha] [-> | Hb]; cbn [app]; rewrite ?app_nil_r; auto. right. apply Good_app; assumption.
Qed.

Lemma blines_claim sts ind ls :
  (forall s, In s sts -> Claim s) -> blines sts ind = Some ls -> bwfl sts ind = true ->
  ls = [] \/ Good ls (4 * ind).
Proof.
  revert ls. induction sts as [|s r IH]; intros ls Hc Hl Hw.
  - injection Hl as <-. left. reflexivity.
  - cbn [blines] in Hl. fold (blines r ind) in Hl. cbn [bwfl] in Hw. fold (bwfl r ind) in Hw.
    apply andb_prop in Hw as [Hws Hwr].
    destruct (plines s ind) as [a|] eqn:Ea; [|discriminate]. destruct (blines r ind) as [b|] eqn:Eb; [|discriminate].
    injection Hl as <-. apply Good_or_app.
    + apply (Hc s (or_introl eq_refl) ind a Ea Hws).
    + apply IH; [intros x Hx; apply Hc; right; exact Hx | reflexivity | exact Hwr].
Qed.

Definition hdr_line (ind : nat) (kw ts : list stok) : pline := (4 * ind, kw ++ ts ++ [E TColon]).
Definition with_suite (ind : nat) (kw ts : list stok) (b : core) : option (list pline) :=
  match suite_lines b ind with Some ls => Some (hdr_line ind kw ts :: ls) | None => None end.

(* the three-way match by which [plines] spells a suite *)
Lemma suite_lines_eq b ind :
  suite_lines b ind =
  match b with
  | Block [] => Some [(4 * S ind, [K "pass"%string])]
  | Block sts => blines sts (S ind)
  | other => plines other (S ind)
  end.
Proof. destruct b; reflexivity. Qed.

Definition fundef_lines (ind : nat) (dec : list string) (id : string) (args : list core) (ty : option core)
           (body : core) : option (list pline) :=
  bind_o (opt_all (map argtoks args)) (fun ats =>
  bind_o (match ty with Some t => ttoks t | None => Some [] end) (fun rt =>
  let sig := [E (TName id); E TLPar] ++ commas ats ++ [E TRPar]
             ++ match ty with Some _ => K "->"%string :: rt | None => [] end in
  match dec with
  | [] => with_suite ind [K "def"%string] sig body
  | [d] =>
      match ind with
      | 0 => None
      | S i => bind_o (with_suite ind [K "def"%string] sig body)
                      (fun ls => Some ((4 * ind + 4 * i, [K "@"%string; E (TName d)]) :: ls))
      end
  | _ => None
  end)).

Lemma plines_compound c ind :
  plines c ind =
  match c with
  | If cnd t => bind_o (etoks cnd) (fun ct => with_suite ind [K "if"%string] ct t)
  | IfElse cnd t e =>
      bind_o (etoks cnd) (fun ct =>
      bind_o (with_suite ind [K "if"%string] ct t) (fun a =>
      bind_o (with_suite ind [K "else"%string] [] e) (fun b => Some (a ++ b))))
  | While cnd b => bind_o (etoks cnd) (fun ct => with_suite ind [K "while"%string] ct b)
  | For e cl b =>
      bind_o (etoks e) (fun et => bind_o (etoks cl) (fun clt => with_suite ind [K "for"%string] (et ++ E TIn :: clt) b))
  | With r b => bind_o (etoks r) (fun rt => with_suite ind [K "with"%string] rt b)
  | WithAs r a b =>
      bind_o (etoks r) (fun rt => bind_o (etoks a) (fun at_ => with_suite ind [K "with"%string] (rt ++ K "as"%string :: at_) b))
  | Case e b => bind_o (etoks e) (fun et => with_suite ind [K "case"%string] et b)
  | Except cl b => bind_o (ttoks cl) (fun ct => with_suite ind [K "except"%string] ct b)
  | ExceptId id cl b =>
      bind_o (ttoks cl) (fun ct => bind_o (etoks id) (fun it => with_suite ind [K "except"%string] (ct ++ K "as"%string :: it) b))
  | ClassDef name parents b =>
      bind_o (etoks name) (fun nt =>
      bind_o (opt_all (map etoks parents)) (fun ps =>
      with_suite ind [K "class"%string] (nt ++ match ps with [] => [] | _ => E TLPar :: commas ps ++ [E TRPar] end) b))
  | FunDef dec id args ty b => fundef_lines ind dec id args ty b
  | FunDefOp o args ty b => fundef_lines ind [] (funop_name o) args ty b
  | TryExcept setup a ex =>
      bind_o (match setup with Some s => plines s ind | None => Some [] end) (fun st =>
      bind_o (with_suite ind [K "try"%string] [] a) (fun al =>
      bind_o (blines ex ind) (fun exl => Some (st ++ al ++ exl))))
  | Match e cases =>
      bind_o (etoks e) (fun et =>
      bind_o (blines cases (S ind)) (fun cl => Some ((4 * ind, K "match"%string :: et ++ [E TColon]) :: cl)))
  | _ => plines c ind
  end.
Proof. rewrite plines_eq. destruct c; unfold fundef_lines, with_suite; rewrite ?suite_lines_eq; reflexivity. Qed.

Lemma ends_colon_hdr a b : ends_colon (a ++ b ++ [E TColon]) = true.
Proof. rewrite app_assoc, ends_colon_snoc. reflexivity. Qed.

Lemma bind_o_some {X Y} (o : option X) (f : X -> option Y) y :
  bind_o o f = Some y -> exists x, o = Some x /\ f x = Some y.
Proof. destruct o as [x|]; cbn; [|discriminate]. intros H. exists x. split; [reflexivity | exact H]. Qed.

(** the third hypothesis is what [wfl] asks of a suite *)
Lemma with_suite_good ind kw ts b L :
  Claim b -> with_suite ind kw ts b = Some L ->
  ne_lines (suite_lines b ind) && match b with Block sts => bwfl sts (S ind) | other => wfl other (S ind) end = true ->
  Good L (4 * ind).
Proof.
  intros Hc Hl Hw. unfold with_suite in Hl. destruct (suite_lines b ind) as [ls|] eqn:El; [|discriminate].
  injection Hl as <-. apply andb_prop in Hw as [Hne Hw].
  assert (Hwb : wfl b (S ind) = true) by (destruct b; exact Hw).
  apply Good_header_suite; [apply ends_colon_hdr|]. replace (4 * ind + 4) with (4 * S ind) by lia.
  assert (Hb : b = Block [] \/ suite_lines b ind = plines b (S ind)).
  { destruct b; try (right; reflexivity). destruct statements; [left | right]; reflexivity. }
  destruct Hb as [-> | Hp].
  - injection El as <-. apply Good_single. reflexivity.
  - rewrite Hp in El. destruct (Hc (S ind) ls El Hwb) as [-> | Hg]; [discriminate Hne | exact Hg].
Qed.

Lemma header_good c b ind ls :
  body_of c = Some b -> Claim b -> plines c ind = Some ls -> wfl c ind = true -> Good ls (4 * ind).
Proof.
  intros Hb Hc Hl Hw. rewrite plines_compound in Hl.
  destruct c; try discriminate Hb; injection Hb as ->; unfold fundef_lines in Hl;
    repeat match type of Hl with bind_o _ _ = _ => apply bind_o_some in Hl as (? & _ & Hl) end; cbn [wfl] in Hw;
    try (apply (with_suite_good _ _ _ _ _ Hc Hl Hw)).
  apply andb_prop in Hw as [Hdec Hw]. destruct dec as [|d [|]]; [| |discriminate Hl].
  - apply (with_suite_good _ _ _ _ _ Hc Hl Hw).
  - apply Nat.eqb_eq in Hdec. subst ind. apply bind_o_some in Hl as (L & Hs & [= <-]).
    apply (Good_app [_] L), (with_suite_good _ _ _ _ _ Hc Hs Hw). apply Good_single. reflexivity.
Qed.

Lemma one_line ind (o : option (list stok)) ls :
  match o with Some t => Some [(4 * ind, t)] | None => None end = Some ls ->
  (forall ts, o = Some ts -> slast ts) -> ls = [] \/ Good ls (4 * ind).
Proof. destruct o as [ts|]; [|discriminate]. intros [= <-] H. right. apply Good_single, slast_ends, H. reflexivity. Qed.

Lemma commas_last (l : list (list stok)) :
  l <> [] -> Forall slast l -> slast (commas l).
Proof.
  intros Hne H. induction H as [|x l Hx Hl IH]; [contradiction|]. destruct l as [|y l].
  - exact Hx.
  - change (commas (x :: y :: l)) with (x ++ E TComma :: commas (y :: l)).
    apply ends_app, ends_cons, IH. discriminate.
Qed.

Lemma ids_last (l : list core) (ts : list (list stok)) :
  opt_all (map (fun x => match x with Id s => Some [E (TName s)] | _ => None end) l) = Some ts ->
  Forall slast ts.
Proof.
  revert ts. induction l as [|x l IH]; intros ts H; cbn [map opt_all] in H.
  - injection H as <-. constructor.
  - destruct x; try discriminate H. destruct (opt_all _) as [r|] eqn:Er; [|discriminate H]. injection H as <-.
    constructor; [apply ends_one; discriminate | apply IH; reflexivity].
Qed.

Theorem plines_layout c ind ls :
  plines c ind = Some ls -> wfl c ind = true -> ls = [] \/ Good ls (4 * ind).
Proof.
  revert ind ls. change (Claim c). induction c as [c IH] using core_kids_ind. intros ind ls Hl Hw.
  destruct (body_of c) as [b|] eqn:Eb.
  { right. apply (header_good c b ind ls Eb); [apply IH | exact Hl | exact Hw].
    unfold kids. destruct c; try discriminate Eb; rewrite Eb; left; reflexivity. }
  rewrite plines_compound in Hl. destruct c; try discriminate Eb; cbn [wfl] in Hw; cbn [kids] in IH;
    try (injection Hl as <-; right; apply Good_single; reflexivity); (* pass, break, continue *)
    try (match type of Hl with plines ?c _ = _ => apply (one_line ind (etoks c) ls Hl), etoks_last end); (* expression statements *)
    try discriminate Hl. (* not a statement of the model *)
  - (* Import *)
    apply (one_line _ _ _ Hl). intros ts Eo.
    apply bind_o_some in Eo as (ft & Hf & Eo). apply bind_o_some in Eo as (nt & Hnt & Eo).
    apply bind_o_some in Eo as (al & Hal & [= <-]).
    apply ends_app. destruct al as [|a0 al].
    + rewrite app_nil_r. destruct nt as [|n0 nt].
      * apply ends_one. discriminate.
      * apply ends_cons, commas_last; [discriminate | apply (ids_last _ _ Hnt)].
    + apply ends_cons, ends_app, ends_cons, commas_last; [discriminate | apply (ids_last _ _ Hal)].
  - (* Assign *)
    apply (one_line _ _ _ Hl). intros ts Eo.
    apply bind_o_some in Eo as (lt & _ & Eo). apply bind_o_some in Eo as (rt & Hr & [= <-]).
    apply ends_app, ends_cons, (etoks_last _ _ Hr).
  - (* VarDef *)
    apply (one_line _ _ _ Hl). intros ts Eo.
    apply bind_o_some in Eo as (vt & _ & Eo). apply bind_o_some in Eo as (tyt & _ & Eo).
    apply bind_o_some in Eo as (et & He & [= <-]).
    apply ends_app, ends_app, ends_cons.
    destruct expr as [x|]; [apply (etoks_last _ _ He) | injection He as <-; apply ends_one; discriminate].
  - (* Block *)
    apply (blines_claim _ _ _ IH Hl Hw).
  - (* return, raise *)
    destruct o; try (apply (one_line ind (etoks (Un _ c)) ls Hl), etoks_last); apply (one_line _ _ _ Hl); intros ts Eo;
      apply bind_o_some in Eo as (t & Ht & [= <-]); apply ends_cons, (etoks_last _ _ Ht).
  - (* IfElse *)
    apply bind_o_some in Hl as (ct & _ & Hl).
    apply bind_o_some in Hl as (a & Ha & Hl). apply bind_o_some in Hl as (b & Hb & [= <-]).
    apply andb_prop in Hw as [Hw1 Hw2]. right. apply Good_app.
    + apply (with_suite_good _ _ _ _ _ (IH _ (or_introl eq_refl)) Ha Hw1).
    + apply (with_suite_good _ _ _ _ _ (IH _ (or_intror (or_introl eq_refl))) Hb Hw2).
  - (* Match *)
    apply bind_o_some in Hl as (et & _ & Hl). apply bind_o_some in Hl as (cl & Hcl & [= <-]).
    apply andb_prop in Hw as [Hne Hw]. change (plines (Block cases) (S ind)) with (blines cases (S ind)) in Hne.
    rewrite Hcl in Hne. right. apply Good_header_suite.
    + apply (ends_colon_hdr [_]).
    + destruct (blines_claim _ _ _ IH Hcl Hw) as [-> | Hg]; [discriminate Hne|].
      replace (4 * ind + 4) with (4 * S ind) by lia. exact Hg.
  - (* TryExcept *)
    apply bind_o_some in Hl as (st & Hst & Hl). apply bind_o_some in Hl as (al & Hal & Hl).
    apply bind_o_some in Hl as (exl & Hex & [= <-]).
    apply andb_prop in Hw as [Hw Hwex]. apply andb_prop in Hw as [Hws Hwa].
    apply Good_or_app; [|apply Good_or_app].
    + destruct setup as [s|]; [|injection Hst as <-; left; reflexivity].
      apply (IH s); [right; apply in_or_app; right; left; reflexivity | exact Hst | exact Hws].
    + right. apply (with_suite_good _ _ _ _ _ (IH _ (or_introl eq_refl)) Hal Hwa).
    + apply (blines_claim _ _ _ (fun x Hx => IH x (or_intror (in_or_app _ _ _ (or_introl Hx)))) Hex Hwex).
Qed.

Theorem module_layout c ls :
  plines c 0 = Some ls -> wfl c 0 = true -> module_layout_ok ls = true.
Proof.
  intros Hl Hw. destruct (plines_layout c 0 ls Hl Hw) as [-> | Hg]; [reflexivity | apply Good_module, Hg].
Qed.
