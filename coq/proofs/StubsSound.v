(** * StubsSound: the regenerated signature table against the model of Python's operators (C04, first stage) *)
From Coq Require Import List String Bool.
From MambaModel Require Import model.Types model.TypingSig gen.StubSigs model.PyOps.
Import ListNotations.
Local Open Scope string_scope.

(** every covered row of a core class outside the rows of [known_row] is sound: whatever tags the declared parameter
    types admit, Python accepts them and returns a tag the declared return type admits *)
Theorem sound_outside_known : stubs_sound (filter (fun r => negb (known_row r)) stub_sigs) = true.
Proof. vm_compute. reflexivity. Qed.

Lemma unsound_row_refutes tbl r :
  In r tbl -> core_row r = true -> row_sound r = false -> stubs_sound tbl = false.
Proof.
  intros HI HC HR. unfold stubs_sound. apply not_true_is_false. intros H.
  rewrite forallb_forall in H. specialize (H r). rewrite HR in H.
  assert (In r (filter core_row tbl)) by (apply filter_In; split; assumption). specialize (H H0). discriminate.
Qed.

Definition known_unsound_present (tbl : list msig) : bool :=
  existsb (fun r => core_row r && known_row r && negb (row_sound r)) tbl.

Theorem refuted_when_present tbl : known_unsound_present tbl = true -> stubs_sound tbl = false.
Proof.
  unfold known_unsound_present. intros H. apply existsb_exists in H as [r [HI H]].
  apply andb_prop in H as [H HR]. apply andb_prop in H as [HC _]. apply negb_true_iff in HR.
  exact (unsound_row_refutes tbl r HI HC HR).
Qed.

Lemma str_plus_int_is_a_type_error : py_call "Str" "__add__" GStr [GInt] = None.
Proof. reflexivity. Qed.
Lemma int_pow_int_may_be_float : py_call "Int" "__pow__" GInt [GInt] = Some [GInt; GFloat].
Proof. reflexivity. Qed.
Lemma float_pow_float_may_be_complex : py_call "Float" "__pow__" GFloat [GFloat] = Some [GFloat; GComplex].
Proof. reflexivity. Qed.
Lemma neg_complex_is_complex : py_call "Complex" "__neg__" GComplex [] = Some [GComplex].
Proof. reflexivity. Qed.
Lemma str_has_no_is_digit : py_call "Str" "is_digit" GStr [] = None.
Proof. reflexivity. Qed.

(** rows of core classes the model of Python does not cover (reported in the evidence) *)
Definition uncovered (tbl : list msig) : list (string * string) :=
  map (fun r => (sg_class r, sg_name r)) (filter (fun r => core_class (sg_class r) && negb (covered (sg_name r))) tbl).
