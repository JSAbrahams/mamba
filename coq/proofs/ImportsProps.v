(** * C16: import records - the order on keys, what a record provides, how the two registrations grow it,
      and when it is free of duplicates *)
From Coq Require Import List String Bool Arith Lia Ascii.
From MambaModel Require Import model.Core gen.Names model.Convert proofs.ConvertProps.
Import ListNotations.
Local Open Scope string_scope.

Lemma str_ltb_irrefl a : str_ltb a a = false.
Proof.
  induction a as [|x a IH]; cbn [str_ltb]; cbv zeta; [reflexivity|]. rewrite Nat.ltb_irrefl. exact IH.
Qed.

Lemma str_ltb_cons x a y b :
  str_ltb (String x a) (String y b) = true <->
  nat_of_ascii x < nat_of_ascii y \/ (nat_of_ascii x = nat_of_ascii y /\ str_ltb a b = true).
Proof.
  cbn [str_ltb]; cbv zeta. destruct (Nat.ltb_spec (nat_of_ascii x) (nat_of_ascii y)), (Nat.ltb_spec (nat_of_ascii y) (nat_of_ascii x));
    intuition (discriminate || lia).
Qed.

Lemma str_ltb_trans a : forall b c, str_ltb a b = true -> str_ltb b c = true -> str_ltb a c = true.
Proof.
  induction a as [|x a IH]; intros [|y b] [|z c]; try discriminate; try reflexivity. rewrite !str_ltb_cons.
  intros [H1|[H1 H1']] [H2|[H2 H2']]; [left; lia | left; lia | left; lia | right; split; [lia | eauto]].
Qed.

Lemma nat_of_ascii_inj x y : nat_of_ascii x = nat_of_ascii y -> x = y.
Proof. intros H. rewrite <- (ascii_nat_embedding x), <- (ascii_nat_embedding y), H. reflexivity. Qed.

Lemma str_ltb_total a : forall b, str_ltb a b = false -> str_ltb b a = false -> a = b.
Proof.
  induction a as [|x a IH]; intros [|y b]; cbn [str_ltb]; cbv zeta; try discriminate; [reflexivity|].
  destruct (Nat.ltb_spec (nat_of_ascii x) (nat_of_ascii y)), (Nat.ltb_spec (nat_of_ascii y) (nat_of_ascii x));
    try discriminate; try lia.
  intros H1 H2. f_equal; [apply nat_of_ascii_inj; lia | apply IH; assumption].
Qed.

Lemma str_ltb_flip k k' : String.eqb k k' = false -> str_ltb k k' = false -> str_ltb k' k = true.
Proof.
  intros He Hl. destruct (str_ltb k' k) eqn:E; [reflexivity|].
  rewrite (str_ltb_total k k' Hl E), String.eqb_refl in He. discriminate.
Qed.

Fixpoint ssorted (l : list string) : Prop :=
  match l with
  | [] => True
  | x :: r => (forall y, In y r -> str_ltb x y = true) /\ ssorted r
  end.

Lemma ssorted_nodup l : ssorted l -> NoDup l.
Proof.
  induction l as [|x r IH]; intros H; [constructor|]. destruct H as [H1 H2]. constructor; [|auto].
  intros Hin. specialize (H1 x Hin). rewrite str_ltb_irrefl in H1. discriminate.
Qed.

Lemma NoDup_app_intro {X} (l l' : list X) :
  NoDup l -> NoDup l' -> (forall x, In x l -> ~ In x l') -> NoDup (l ++ l').
Proof.
  induction 1 as [|y r Hy _ IH]; intros Hl' Hd; [exact Hl'|]. cbn [app]. constructor.
  - intros Hin. apply in_app_or in Hin. destruct Hin as [Hin|Hin]; [contradiction | exact (Hd y (or_introl eq_refl) Hin)].
  - apply IH; [exact Hl'|]. intros x Hx. apply Hd. right. exact Hx.
Qed.

Lemma map_insert_new {V} k (v : V) m : In (k, v) (map_insert k v m).
Proof.
  induction m as [|[k' v'] r IH]; cbn [map_insert]; [left; reflexivity|].
  destruct (String.eqb k k'); [left; reflexivity|]. destruct (str_ltb k k'); [left; reflexivity|]. right. exact IH.
Qed.

Lemma map_insert_keeps {V} k (v : V) m k' v' :
  In (k', v') m -> In (k', v') (map_insert k v m) \/ (k' = k /\ map_get k m = Some v').
Proof.
  induction m as [|[k0 v0] r IH]; [intros []|]. cbn [map_insert map_get].
  destruct (String.eqb_spec k k0) as [->|Hne]; [|destruct (str_ltb k k0)]; cbn [In]; intuition congruence.
Qed.

Lemma map_insert_other {V} k (v : V) m k' v' : k' <> k -> In (k', v') m -> In (k', v') (map_insert k v m).
Proof. intros Hne Hin. destruct (map_insert_keeps k v m k' v' Hin) as [H|[H _]]; [exact H | contradiction]. Qed.

Lemma map_insert_inv {V} k (v : V) m e : In e (map_insert k v m) -> e = (k, v) \/ In e m.
Proof.
  induction m as [|[k0 v0] r IH]; cbn [map_insert]; [cbn [In]; intuition|].
  destruct (String.eqb k k0); [|destruct (str_ltb k k0)]; cbn [In]; intuition.
Qed.

Lemma map_insert_keys {V} k (v : V) m y : In y (map fst (map_insert k v m)) -> y = k \/ In y (map fst m).
Proof.
  intros H. apply in_map_iff in H. destruct H as [e [<- He]].
  destruct (map_insert_inv k v m e He) as [->|H]; [left; reflexivity | right; apply in_map; exact H].
Qed.

Lemma map_get_in {V} k (m : list (string * V)) v : map_get k m = Some v -> In (k, v) m.
Proof.
  induction m as [|[k0 v0] r IH]; cbn [map_get]; [discriminate|].
  destruct (String.eqb_spec k k0) as [->|Hne]; [intros E; inversion E; left; reflexivity | intros H; right; auto].
Qed.

Lemma map_insert_sorted {V} k (v : V) m : ssorted (map fst m) -> ssorted (map fst (map_insert k v m)).
Proof.
  induction m as [|[k0 v0] r IH]; cbn [map_insert map fst ssorted]; [intros _; split; [intros y []|exact I]|].
  intros [H1 H2]. destruct (String.eqb_spec k k0) as [->|Hne].
  - cbn [map fst ssorted]. split; assumption.
  - destruct (str_ltb k k0) eqn:Hl; cbn [map fst ssorted].
    + split; [|split; assumption]. intros y [<-|Hy]; [exact Hl|]. apply (str_ltb_trans k k0 y Hl). auto.
    + split; [|auto]. intros y Hy. destruct (map_insert_keys k v r y Hy) as [->|Hy']; [|auto].
      apply str_ltb_flip; [apply String.eqb_neq; exact Hne | exact Hl].
Qed.

Lemma insert_sorted_in x l c : In c (insert_sorted_id x l) <-> c = Id x \/ In c l.
Proof.
  induction l as [|y r IH]; [cbn; intuition|].
  destruct (insert_sorted_cons x y r) as [-> | ->]; cbn [In]; rewrite ?IH; intuition.
Qed.

Lemma insert_sorted_nodup x l : NoDup l -> ~ In (Id x) l -> NoDup (insert_sorted_id x l).
Proof.
  induction l as [|y r IH]; intros Hn Hx; [constructor; [intros []|constructor]|].
  destruct (insert_sorted_cons x y r) as [-> | ->]; [constructor; assumption|].
  inversion Hn; subst. constructor.
  - rewrite insert_sorted_in. intros [->|H]; [apply Hx; left; reflexivity | contradiction].
  - apply IH; [assumption|]. intros H. apply Hx. right. exact H.
Qed.

Lemma existsb_id_in name names : existsb (core_id_eqb (Id name)) names = true <-> In (Id name) names.
Proof.
  rewrite existsb_exists. split.
  - intros [c [Hc He]]. destruct c; cbn [core_id_eqb] in He; try discriminate.
    apply String.eqb_eq in He. subst. exact Hc.
  - intros H. exists (Id name). split; [exact H|]. cbn [core_id_eqb]. apply String.eqb_refl.
Qed.

Lemma add_name_in name o : In (Id name) (fst (add_name name o)).
Proof.
  destruct o as [[names alias]|]; cbn [add_name fst]; [|left; reflexivity].
  destruct (existsb (core_id_eqb (Id name)) names) eqn:E.
  - apply existsb_id_in. exact E.
  - apply insert_sorted_in. left. reflexivity.
Qed.

Lemma add_name_keeps name names alias c : In c names -> In c (fst (add_name name (Some (names, alias)))).
Proof.
  intros H. cbn [add_name fst]. destruct (existsb (core_id_eqb (Id name)) names); [exact H|].
  apply insert_sorted_in. right. exact H.
Qed.

Lemma add_name_alias name names alias : snd (add_name name (Some (names, alias))) = alias.
Proof. reflexivity. Qed.

Inductive need := PlainImport (m : string) | FromImport (m n : string).

Definition plain_imp (m : string) : core := Import None [Id m] [].

Definition provides (i : imports) (n : need) : Prop :=
  match n with
  | PlainImport m => In (plain_imp m) (imps i)
  | FromImport m x => exists ns al, In (m, (ns, al)) (from_imps i) /\ In (Id x) ns
  end.

(** the [typing] entry lives only in [typing_imps] *)
Definition typing_sep (i : imports) : Prop := ~ In "typing" (map fst (other_from i)).

(** [j] keeps [typing] apart and provides what [i] does - provided [i] keeps [typing] apart: without that,
    a registration in [typing_imps] can be hidden by the user's own [typing] entry ([odd_imports]) *)
Definition ile (i j : imports) : Prop :=
  typing_sep i -> typing_sep j /\ forall n, provides i n -> provides j n.

Lemma ile_refl i : ile i i.
Proof. intros H. split; [exact H | auto]. Qed.
Lemma ile_trans i j k : ile i j -> ile j k -> ile i k.
Proof. intros H1 H2 Hs. destruct (H1 Hs) as [Hj H1']. destruct (H2 Hj) as [Hk H2']. split; [exact Hk | auto]. Qed.

Lemma from_imps_add_import s i : from_imps (add_import s i) = from_imps i.
Proof. unfold add_import. destruct (existsb _ _); reflexivity. Qed.
Lemma other_from_add_import s i : other_from (add_import s i) = other_from i.
Proof. unfold add_import. destruct (existsb _ _); reflexivity. Qed.
Lemma typing_imps_add_import s i : typing_imps (add_import s i) = typing_imps i.
Proof. unfold add_import. destruct (existsb _ _); reflexivity. Qed.

Lemma import_eqb_refl s : import_eqb (plain_imp s) (plain_imp s) = true.
Proof. cbn [import_eqb plain_imp]. apply String.eqb_refl. Qed.

Lemma import_eqb_plain s c : import_eqb (plain_imp s) c = true -> c = plain_imp s.
Proof.
  unfold plain_imp. destruct c; cbn [import_eqb]; try discriminate.
  repeat (match goal with |- context [match ?x with _ => _ end] => destruct x; try discriminate end).
  intros H. apply String.eqb_eq in H. subst. reflexivity.
Qed.

Lemma add_import_provides s i : provides (add_import s i) (PlainImport s).
Proof.
  cbn [provides]. unfold add_import. fold (plain_imp s).
  destruct (existsb (import_eqb (plain_imp s)) (imps i)) eqn:E.
  - apply existsb_exists in E. destruct E as [c [Hc He]].
    apply import_eqb_plain in He. subst. exact Hc.
  - cbn [imps]. apply in_or_app. right. left. reflexivity.
Qed.

Lemma add_import_ile s i : ile i (add_import s i).
Proof.
  intros Hs. split.
  - unfold typing_sep. rewrite other_from_add_import. exact Hs.
  - intros [m|m x]; cbn [provides].
    + unfold add_import. destruct (existsb _ _); [auto|]. cbn [imps]. intros H. apply in_or_app. left. exact H.
    + rewrite from_imps_add_import. auto.
Qed.

Lemma from_imps_typing_entry i v : typing_sep i -> In ("typing", v) (from_imps i) -> typing_imps i = Some v.
Proof.
  unfold typing_sep, from_imps. intros Hs Hin. destruct (typing_imps i) as [w|].
  - destruct (map_insert_inv _ _ _ _ Hin) as [E|H]; [inversion E; reflexivity|].
    exfalso. apply Hs. apply (in_map fst) in H. exact H.
  - exfalso. apply Hs. apply (in_map fst) in Hin. exact Hin.
Qed.

Lemma from_imps_other_entry i m v :
  m <> "typing" -> In (m, v) (from_imps i) <-> In (m, v) (other_from i).
Proof.
  intros Hm. unfold from_imps. destruct (typing_imps i) as [tv|]; [|tauto]. split.
  - intros H. destruct (map_insert_inv _ _ _ _ H) as [E|H']; [inversion E; contradiction | exact H'].
  - apply map_insert_other. exact Hm.
Qed.

Lemma provides_entry i m v x : In (m, v) (from_imps i) -> In (Id x) (fst v) -> provides i (FromImport m x).
Proof. destruct v as [ns al]. intros H Hx. exists ns, al. split; assumption. Qed.

(** the names registered for module [m], as [add_from_import] looks them up *)
Definition entry (i : imports) (m : string) : option (list core * list core) :=
  if String.eqb m "typing" then typing_imps i else map_get m (other_from i).

(** [add_from_import f x] puts [x] into the entry of [f] and keeps every other entry *)
Lemma add_from_import_entry f x i : In (f, add_name x (entry i f)) (from_imps (add_from_import f x i)).
Proof.
  unfold add_from_import, entry. destruct (String.eqb_spec f "typing") as [->|Hne].
  - unfold from_imps. cbn [typing_imps other_from]. apply map_insert_new.
  - apply from_imps_other_entry; [exact Hne|]. cbn [other_from]. apply map_insert_new.
Qed.

Lemma add_from_import_keeps f x i m v : typing_sep i -> In (m, v) (from_imps i) ->
  In (m, v) (from_imps (add_from_import f x i)) \/ (m = f /\ entry i f = Some v).
Proof.
  intros Hs Hin. unfold add_from_import, entry. destruct (String.eqb_spec m "typing") as [->|Hm].
  - apply from_imps_typing_entry in Hin; [|exact Hs].
    destruct (String.eqb_spec f "typing") as [->|Hne]; [right; split; [reflexivity | exact Hin]|].
    left. unfold from_imps. cbn [typing_imps other_from]. rewrite Hin. apply map_insert_new.
  - apply from_imps_other_entry in Hin; [|exact Hm]. rewrite from_imps_other_entry by exact Hm.
    destruct (String.eqb_spec f "typing") as [->|Hne]; cbn [other_from]; [left; exact Hin|].
    apply map_insert_keeps, Hin.
Qed.

Lemma add_from_import_provides f x i : provides (add_from_import f x i) (FromImport f x).
Proof. apply provides_entry with (add_name x (entry i f)); [apply add_from_import_entry | apply add_name_in]. Qed.

Lemma add_from_import_sep f x i : typing_sep i -> typing_sep (add_from_import f x i).
Proof.
  unfold typing_sep, add_from_import. intros Hs. destruct (String.eqb_spec f "typing") as [->|Hne]; cbn [other_from].
  - exact Hs.
  - intros H. destruct (map_insert_keys _ _ _ _ H) as [E|H']; [apply Hne; symmetry; exact E | exact (Hs H')].
Qed.

Lemma add_from_import_ile f x i : ile i (add_from_import f x i).
Proof.
  intros Hs. split; [apply add_from_import_sep; exact Hs|].
  intros [m|m y]; cbn [provides].
  - unfold add_from_import. destruct (String.eqb f "typing"); cbn [imps]; auto.
  - intros (ns & al & Hin & Hy).
    destruct (add_from_import_keeps f x i m _ Hs Hin) as [H|[-> He]]; [exists ns, al; split; assumption|].
    apply provides_entry with (add_name x (entry i f)); [apply add_from_import_entry|].
    rewrite He. apply add_name_keeps, Hy.
Qed.

Definition is_plain (c : core) : bool := match c with Import None [Id _] [] => true | _ => false end.
Definition names_ok (v : list core * list core) : Prop := NoDup (fst v) /\ snd v = [].

Record wf (i : imports) : Prop := {
  wf_plain : forallb is_plain (imps i) = true;
  wf_nodup : NoDup (imps i);
  wf_sorted : ssorted (map fst (other_from i));
  wf_sep : typing_sep i;
  wf_typing : match typing_imps i with Some v => names_ok v | None => True end;
  wf_other : Forall (fun kv => names_ok (snd kv)) (other_from i) }.

Lemma wf0 : wf imports0.
Proof.
  constructor; cbn [imports0 imps typing_imps other_from forallb map ssorted]; auto; try constructor.
  intros [].
Qed.

Lemma add_name_ok name o : match o with Some v => names_ok v | None => True end -> names_ok (add_name name o).
Proof.
  destruct o as [[names alias]|]; cbn [add_name]; unfold names_ok; cbn [fst snd].
  - intros [Hn Ha]. split; [|exact Ha].
    destruct (existsb (core_id_eqb (Id name)) names) eqn:E; [exact Hn|].
    apply insert_sorted_nodup; [exact Hn|]. intros H. apply existsb_id_in in H. congruence.
  - intros _. split; [constructor; [intros []|constructor] | reflexivity].
Qed.

Lemma add_import_wf s i : wf i -> wf (add_import s i).
Proof.
  intros [H1 H2 H3 H4 H5 H6]. unfold add_import. fold (plain_imp s).
  destruct (existsb (import_eqb (plain_imp s)) (imps i)) eqn:E; constructor; cbn [imps typing_imps other_from]; auto.
  - rewrite forallb_app, H1. reflexivity.
  - apply NoDup_app_intro; [exact H2 | constructor; [intros []|constructor] |]. intros y Hy [<-|[]].
    assert (existsb (import_eqb (plain_imp s)) (imps i) = true); [|congruence].
    apply existsb_exists. exists (plain_imp s). split; [exact Hy | apply import_eqb_refl].
Qed.

Lemma add_from_import_wf f x i : wf i -> wf (add_from_import f x i).
Proof.
  intros [H1 H2 H3 H4 H5 H6]. pose proof (add_from_import_sep f x i H4) as Hsep. revert Hsep.
  unfold add_from_import. destruct (String.eqb_spec f "typing") as [->|Hne]; intros Hsep;
    constructor; cbn [imps typing_imps other_from]; auto.
  - apply add_name_ok. exact H5.
  - apply map_insert_sorted. exact H3.
  - apply Forall_forall. intros e He. destruct (map_insert_inv _ _ _ _ He) as [->|He'].
    + cbn [snd]. apply add_name_ok. destruct (map_get f (other_from i)) as [v|] eqn:Hg; [|exact I].
      apply map_get_in in Hg. rewrite Forall_forall in H6. apply (H6 _ Hg).
    + rewrite Forall_forall in H6. auto.
Qed.

Lemma from_imps_sorted i : wf i -> ssorted (map fst (from_imps i)).
Proof.
  intros [_ _ H3 _ _ _]. unfold from_imps. destruct (typing_imps i); [apply map_insert_sorted|]; exact H3.
Qed.

Lemma from_imps_names_ok i : wf i -> Forall (fun kv => names_ok (snd kv)) (from_imps i).
Proof.
  intros [_ _ _ _ H5 H6]. unfold from_imps. destruct (typing_imps i) as [v|]; [|exact H6].
  apply Forall_forall. intros e He. destruct (map_insert_inv _ _ _ _ He) as [->|He']; [exact H5|].
  rewrite Forall_forall in H6. auto.
Qed.

Definition once (j : imports) : Prop :=
  NoDup (imps j) /\ NoDup (map fst (from_imps j)) /\
  Forall (fun kv => NoDup (fst (snd kv)) /\ snd (snd kv) = []) (from_imps j) /\
  NoDup (import_list j).

Lemma from_import_core_inj kv1 kv2 : from_import_core kv1 = from_import_core kv2 -> kv1 = kv2.
Proof.
  destruct kv1 as [k1 [n1 a1]], kv2 as [k2 [n2 a2]]. unfold from_import_core. cbn [fst snd].
  intros E. inversion E. reflexivity.
Qed.

Lemma wf_once j : wf j -> once j.
Proof.
  intros H. pose proof (from_imps_sorted j H) as Hs. pose proof (from_imps_names_ok j H) as Hn.
  destruct H as [H1 H2 _ _ _ _].
  assert (Hk : NoDup (map fst (from_imps j))) by (apply ssorted_nodup; exact Hs).
  repeat split; try assumption.
  unfold import_list.
  assert (Hf : NoDup (map from_import_core (from_imps j))).
  { apply NoDup_map_inv in Hk. clear -Hk. induction Hk as [|e l He _ IH]; cbn [map]; constructor; [|exact IH].
    intros Hin. apply in_map_iff in Hin. destruct Hin as [e' [E He']]. apply from_import_core_inj in E. subst. contradiction. }
  apply NoDup_app_intro; [exact H2 | exact Hf |]. intros y Hy Hin. apply in_map_iff in Hin. destruct Hin as [e [E _]].
  rewrite forallb_forall in H1. specialize (H1 y Hy). rewrite <- E in H1. discriminate H1.
Qed.
