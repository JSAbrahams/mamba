(** Facts about [Convert.conv] that the developments over it share.  The rendering of a type does not depend
    on the import record, which changes by a list of [typing] names ([nm_to_py_nf]); [append_ret] and
    [append_assign] are one map over the leaves in tail position ([tmap]); class assembly commutes with the
    maps of [core] that keep what it inspects ([assemble_class_hom]).  For C11: [erase] and the relations
    "equal up to annotations" on results, states, import records and computations. *)
From Coq Require Import List String Bool Arith Lia.
From MambaModel Require Import model.Core gen.Names model.Convert proofs.ConvUnfold.
Import ListNotations.
Local Open Scope string_scope.

Fixpoint size (a : ast) : nat :=
  match a with
  | A _ n =>
      let sl := fix sl (l : list ast) : nat := match l with [] => 0 | x :: r => size x + sl r end in
      let so (o : option ast) : nat := match o with Some x => size x | None => 0 end in
      S match n with
        | NBin _ l r => size l + size r
        | NUn _ e => size e
        | NTuple es | NList es | NSet es | NBlock es => sl es
        | NIndex i r => size i + size r
        | NRange f t _ s | NSlice f t _ s => size f + size t + so s
        | NCall _ _ args => sl args
        | NProp i p => size i + size p
        | NAnonFun args b => sl args + size b
        | NExprType e _ => size e
        | NVarDef v _ e => size v + so e
        | NReassign l r _ => size l + size r
        | NFunDef i args _ b => size i + sl args + so b
        | NFunArg _ v _ d => size v + so d
        | NReturn e | NRaise e => size e
        | NIfElse c t e => size c + size t + so e
        | NMatch c cs | NHandle c cs => size c + sl cs
        | NCase c b | NWhile c b => size c + size b
        | NFor e c b => size e + size c + size b
        | NImport f i al => so f + sl i + sl al
        | NClass _ _ args ps b => sl args + sl ps + so b
        | NParent _ _ args => sl args
        | NTypeDef _ _ _ b _ => so b
        | NDict es =>
            (fix sp (l : list (ast * ast)) : nat :=
               match l with [] => 0 | kv :: r => size (fst kv) + size (snd kv) + sp r end) es
        | NListBuilder i cs | NSetBuilder i cs => size i + sl cs
        | NDictBuilder f t cs => size f + size t + sl cs
        | NWith r al b => size r + so al + size b
        | _ => 0
        end
  end.

Fixpoint sizes (l : list ast) : nat := match l with [] => 0 | x :: r => size x + sizes r end.
Definition sizeo (o : option ast) : nat := match o with Some x => size x | None => 0 end.
Fixpoint sizesp (l : list (ast * ast)) : nat :=
  match l with [] => 0 | kv :: r => size (fst kv) + size (snd kv) + sizesp r end.

Lemma size_unfold ty n :
  size (A ty n) =
  S match n with
    | NBin _ l r => size l + size r
    | NUn _ e => size e
    | NTuple es | NList es | NSet es | NBlock es => sizes es
    | NIndex i r => size i + size r
    | NRange f t _ s | NSlice f t _ s => size f + size t + sizeo s
    | NCall _ _ args => sizes args
    | NProp i p => size i + size p
    | NAnonFun args b => sizes args + size b
    | NExprType e _ => size e
    | NVarDef v _ e => size v + sizeo e
    | NReassign l r _ => size l + size r
    | NFunDef i args _ b => size i + sizes args + sizeo b
    | NFunArg _ v _ d => size v + sizeo d
    | NReturn e | NRaise e => size e
    | NIfElse c t e => size c + size t + sizeo e
    | NMatch c cs | NHandle c cs => size c + sizes cs
    | NCase c b | NWhile c b => size c + size b
    | NFor e c b => size e + size c + size b
    | NImport f i al => sizeo f + sizes i + sizes al
    | NClass _ _ args ps b => sizes args + sizes ps + sizeo b
    | NParent _ _ args => sizes args
    | NTypeDef _ _ _ b _ => sizeo b
    | NDict es => sizesp es
    | NListBuilder i cs | NSetBuilder i cs => size i + sizes cs
    | NDictBuilder f t cs => size f + size t + sizes cs
    | NWith r al b => size r + sizeo al + size b
    | _ => 0
    end.
Proof. destruct n; reflexivity. Qed.

Lemma sizesp_in kv l : In kv l -> size (fst kv) + size (snd kv) <= sizesp l.
Proof.
  induction l as [|y l IH]; [easy|]. intros [-> | H]; cbn [sizesp]; [lia|]. specialize (IH H). lia.
Qed.

Lemma sizes_in x l : In x l -> size x <= sizes l.
Proof.
  induction l as [|y l IH]; [easy|]. intros [-> | H]; cbn [sizes]; [lia|]. specialize (IH H). lia.
Qed.

Lemma size_ind (P : ast -> Prop) : (forall a, (forall x, size x < size a -> P x) -> P a) -> forall a, P a.
Proof.
  intros H. assert (G : forall n a, size a < n -> P a); [|intros a; apply (G (S (size a))), Nat.lt_succ_diag_r].
  induction n as [|n IH]; intros a Ha; [inversion Ha|]. apply H. intros x Hx. apply IH. lia.
Qed.

(** [lia] after unfolding [sizeo]/[sizes]/[sizesp] of the sub-trees at hand *)
Ltac size_lia := cbn [sizeo sizes sizesp fst snd]; lia.

Fixpoint erase (c : core) : core :=
  let el := map erase in
  let eo (o : option core) := match o with Some x => Some (erase x) | None => None end in
  match c with
  | Import f i a => Import (eo f) (el i) (el a)
  | ClassDef n p b => ClassDef (erase n) (el p) (erase b)
  | FunctionCall f a => FunctionCall (erase f) (el a)
  | PropertyCall o p => PropertyCall (erase o) (erase p)
  | ExpressionType e t => ExpressionType (erase e) (erase t)
  | Assign l r op => Assign (erase l) (erase r) op
  | VarDef v _ e => VarDef (erase v) None (eo e)
  | FunDefOp op a _ b => FunDefOp op (el a) None (erase b)
  | FunDef d i a _ b => FunDef d i (el a) None (erase b)
  | FunArg v x _ d => FunArg v (erase x) None (eo d)
  | AnonFun a b => AnonFun (el a) (erase b)
  | Block s => Block (el s)
  | Tuple e => Tuple (el e) | TupleLiteral e => TupleLiteral (el e)
  | DictComprehension f t cl cs => DictComprehension (erase f) (erase t) (erase cl) (el cs)
  | Comprehension e cl cs => Comprehension (erase e) (erase cl) (el cs)
  | Dictionary es => Dictionary (map (fun kv => (erase (fst kv), erase (snd kv))) es)
  | Set_ e => Set_ (el e) | List_ e => List_ (el e)
  | Index i r => Index (erase i) (erase r)
  | Bin o l r => Bin o (erase l) (erase r)
  | Un o e => Un o (erase e)
  | For e cl b => For (erase e) (erase cl) (erase b)
  | If cn t => If (erase cn) (erase t)
  | IfElse cn t e => IfElse (erase cn) (erase t) (erase e)
  | Match e cs => Match (erase e) (el cs)
  | Case e b => Case (erase e) (erase b)
  | Ternary cn t e => Ternary (erase cn) (erase t) (erase e)
  | KeyValue k v => KeyValue (erase k) (erase v)
  | While cn b => While (erase cn) (erase b)
  | TryExcept s a ex => TryExcept (eo s) (erase a) (el ex)
  | ExceptId i cl b => ExceptId (erase i) (erase cl) (erase b)
  | Except cl b => Except (erase cl) (erase b)
  | With r e => With (erase r) (erase e)
  | WithAs r a e => WithAs (erase r) (erase a) (erase e)
  | other => other
  end.

Definition erase_opt (o : option core) : option core :=
  match o with Some x => Some (erase x) | None => None end.

Definition nontyping {V} (m : list (string * V)) : list (string * V) :=
  filter (fun kv => negb (String.eqb (fst kv) "typing")) m.
Definition irel (i1 i0 : imports) : Prop :=
  imps i1 = imps i0 /\ other_from i1 = other_from i0.

Definition crel (c1 c0 : core) : Prop := erase c1 = erase c0.

Definition arel (a1 a0 : option (core * option nm)) : Prop :=
  match a1, a0 with
  | Some (t1, n1), Some (t0, n0) => crel t1 t0 /\ n1 = n0
  | None, None => True
  | _, _ => False
  end.
Definition srel (s1 s0 : state) : Prop :=
  interface s1 = interface s0 /\ expand_ty s1 = expand_ty s0 /\ def_as_fun_arg s1 = def_as_fun_arg s0
  /\ tup_lit s1 = tup_lit s0 /\ last_ret s1 = last_ret s0 /\ remove_ret s1 = remove_ret s0
  /\ arel (assign_to s1) (assign_to s0).

Definition mrel {X} (R : X -> X -> Prop) (m1 m0 : M X) : Prop :=
  forall i1 i0, irel i1 i0 ->
    match m1 i1, m0 i0 with
    | Some (x1, j1), Some (x0, j0) => R x1 x0 /\ irel j1 j0
    | None, None => True
    | _, _ => False
    end.

Lemma mrel_ret {X} (R : X -> X -> Prop) x1 x0 : R x1 x0 -> mrel R (ret x1) (ret x0).
Proof. intros H i1 i0 Hi. cbn. split; assumption. Qed.

Lemma mrel_fail {X} (R : X -> X -> Prop) : mrel R fail fail.
Proof. intros i1 i0 Hi. exact I. Qed.

Lemma mrel_bind {X Y} (RX : X -> X -> Prop) (RY : Y -> Y -> Prop) m1 m0 k1 k0 :
  mrel RX m1 m0 -> (forall x1 x0, RX x1 x0 -> mrel RY (k1 x1) (k0 x0)) ->
  mrel RY (bind m1 k1) (bind m0 k0).
Proof.
  intros Hm Hk i1 i0 Hi. unfold bind. specialize (Hm i1 i0 Hi).
  destruct (m1 i1) as [[x1 j1]|], (m0 i0) as [[x0 j0]|]; try contradiction; [|exact I].
  destruct Hm as [Hx Hj]. apply (Hk x1 x0 Hx j1 j0 Hj).
Qed.

Lemma bind_inv {X Y} (m : M X) (k : X -> M Y) i y j :
  bind m k i = Some (y, j) -> exists x i', m i = Some (x, i') /\ k x i' = Some (y, j).
Proof. unfold bind. destruct (m i) as [[x i']|]; [|discriminate]. intros H. exists x, i'. split; [reflexivity | exact H]. Qed.

Lemma ret_inv {X} (x y : X) i j : ret x i = Some (y, j) -> x = y /\ i = j.
Proof. unfold ret. intros H. inversion H. split; reflexivity. Qed.

Lemma mmap_inv {X Y} (f : X -> M Y) l : forall i ys j,
  mmap f l i = Some (ys, j) -> Forall2 (fun x y => exists i j, f x i = Some (y, j)) l ys.
Proof.
  induction l as [|x l IH]; intros i ys j H; cbn [mmap] in H.
  - apply ret_inv in H. destruct H as [<- _]. constructor.
  - apply bind_inv in H. destruct H as (c & i1 & Hc & H). apply bind_inv in H. destruct H as (cs & i2 & Hcs & H).
    apply ret_inv in H. destruct H as [<- _]. constructor; [exists i, i1; exact Hc | exact (IH _ _ _ Hcs)].
Qed.

Lemma lookup_in k m v : lookup k m = Some v -> In (k, v) m.
Proof.
  induction m as [|[k' v'] m IH]; cbn [lookup]; [discriminate|].
  destruct (String.eqb_spec k k') as [->|_]; [intros H; inversion H; left; reflexivity | intros H; right; apply IH, H].
Qed.

(** membership of a literal in a literal list *)
Ltac in_list := repeat (first [left; reflexivity | right]).

Lemma funop_of_name lit op : funop_of lit = Some op -> funop_name op = lit.
Proof.
  unfold funop_of. cbv zeta.
  repeat match goal with
  | |- (if ?b then _ else _) = _ -> _ =>
      let E := fresh "E" in destruct b eqn:E;
      [ intros H; injection H as <-; cbn [lookup dunder String.eqb Ascii.eqb Bool.eqb] in E;
        apply String.eqb_eq in E; subst lit; reflexivity | clear E ]
  end.
  discriminate.
Qed.

Lemma nontyping_insert_typing {V} (v : V) m :
  nontyping (map_insert "typing" v m) = nontyping m.
Proof.
  induction m as [|[k w] m IH]; cbn [map_insert nontyping filter fst]; [reflexivity|].
  destruct (String.eqb "typing" k) eqn:Hk.
  - apply String.eqb_eq in Hk. subst k. cbn [nontyping filter fst]. reflexivity.
  - destruct (str_ltb "typing" k).
    + cbn [filter fst]. rewrite String.eqb_refl. reflexivity.
    + cbn [filter fst]. fold (nontyping (map_insert "typing" v m)). rewrite IH. reflexivity.
Qed.

Lemma from_imps_nontyping i : nontyping (from_imps i) = nontyping (other_from i).
Proof. unfold from_imps. destruct (typing_imps i); [apply nontyping_insert_typing | reflexivity]. Qed.

Lemma insert_sorted_cons x y r :
  insert_sorted_id x (y :: r) = Id x :: y :: r \/ insert_sorted_id x (y :: r) = y :: insert_sorted_id x r.
Proof. destruct y; cbn [insert_sorted_id]; try destruct (str_ltb x lit); auto. Qed.

Lemma irel_refl i : irel i i. Proof. split; reflexivity. Qed.
Lemma irel_sym i j : irel i j -> irel j i. Proof. intros [H1 H2]. split; symmetry; assumption. Qed.
Lemma irel_trans i j k : irel i j -> irel j k -> irel i k.
Proof. intros [H1 H2] [H3 H4]. split; etransitivity; eassumption. Qed.

Lemma add_from_irel from name i1 i0 : irel i1 i0 -> irel (add_from_import from name i1) (add_from_import from name i0).
Proof.
  intros [H1 H2]. unfold add_from_import. destruct (String.eqb from "typing"); cbn [imps other_from]; split;
    try assumption. rewrite H2. reflexivity.
Qed.

Lemma add_import_irel name i1 i0 : irel i1 i0 -> irel (add_import name i1) (add_import name i0).
Proof.
  intros [H1 H2]. unfold add_import. rewrite H1. destruct (existsb _ (imps i0)); split; cbn [imps other_from]; congruence.
Qed.

Definition adds (l : list string) (i : imports) : imports :=
  fold_left (fun i s => add_from_import "typing" s i) l i.

Lemma adds_app l1 l2 i : adds (l1 ++ l2) i = adds l2 (adds l1 i).
Proof. apply fold_left_app. Qed.

Lemma adds_self l i : irel (adds l i) i.
Proof.
  revert i. induction l as [|s l IH]; intros i; [apply irel_refl|].
  eapply irel_trans; [apply IH|]. split; reflexivity.
Qed.

Lemma adds_irel l1 l0 i1 i0 : irel i1 i0 -> irel (adds l1 i1) (adds l0 i0).
Proof.
  intros H. eapply irel_trans; [apply adds_self|]. eapply irel_trans; [exact H|]. apply irel_sym, adds_self.
Qed.

Section nm_ind2.
  Variables (P : nm -> Prop) (Q : tn -> Prop).
  Hypothesis HNM : forall ms, Forall Q ms -> P (NM ms).
  Hypothesis HTN : forall b s gs, Forall P gs -> Q (TN b s gs).
  Fixpoint nm_ind2 (n : nm) : P n :=
    match n with
    | NM ms => HNM ms ((fix go (l : list tn) : Forall Q l :=
                          match l with
                          | [] => Forall_nil _
                          | t :: r => Forall_cons _ (tn_ind2 t) (go r)
                          end) ms)
    end
  with tn_ind2 (t : tn) : Q t :=
    match t with
    | TN b s gs => HTN b s gs ((fix go (l : list nm) : Forall P l :=
                                  match l with
                                  | [] => Forall_nil _
                                  | g :: r => Forall_cons _ (nm_ind2 g) (go r)
                                  end) gs)
    end.
End nm_ind2.

Lemma nm_to_py_unfold ms i :
  nm_to_py (NM ms) i =
  match ms with
  | [] => (Empty, i)
  | [t] => tn_to_py t i
  | _ => let i1 := add_from_import "typing" n_union_py i in
         let '(gs, i2) := smap tn_to_py ms i1 in (Type_ n_union_py gs, i2)
  end.
Proof. destruct ms as [|t [|t2 r]]; reflexivity. Qed.

Definition tn_variant (name : string) (generics : list nm) (i : imports) : core * imports :=
  if String.eqb name n_tuple_m then
    let i1 := add_from_import "typing" n_tuple_py i in
    let '(gs, i2) := smap nm_to_py generics i1 in (Type_ n_tuple_py gs, i2)
  else if String.eqb name n_callable_m then
    let i1 := add_from_import "typing" n_callable_py i in
    match generics with
    | a :: r :: _ =>
        let '(ca, i2) := nm_to_py a i1 in let '(cr, i3) := nm_to_py r i2 in
        (Type_ n_callable_py [ca; cr], i3)
    | [a] => let '(ca, i2) := nm_to_py a i1 in (Type_ n_callable_py [ca; Empty], i2)
    | [] => (Type_ n_callable_py [Empty; Empty], i1)
    end
  else
    let i1 := if String.eqb name n_any_m then add_from_import "typing" n_any_py i else i in
    let '(gs, i2) := smap nm_to_py generics i1 in (Type_ (concrete_to_python name) gs, i2).

Lemma tn_to_py_variant nullable name generics i :
  tn_to_py (TN nullable name generics) i =
  if nullable then
    let i1 := add_from_import "typing" "Optional" i in
    let '(c, i2) := tn_variant name generics i1 in (Type_ "Optional" [c], i2)
  else tn_variant name generics i.
Proof. reflexivity. Qed.

Definition variant_core (name : string) (gs : list core) : core :=
  if String.eqb name n_tuple_m then Type_ n_tuple_py gs
  else if String.eqb name n_callable_m then
    Type_ n_callable_py match gs with a :: r :: _ => [a; r] | [a] => [a; Empty] | [] => [Empty; Empty] end
  else Type_ (concrete_to_python name) gs.
Definition variant_adds (name : string) (gs : list (list string)) : list string :=
  if String.eqb name n_tuple_m then n_tuple_py :: List.concat gs
  else if String.eqb name n_callable_m then n_callable_py :: List.concat (firstn 2 gs)
  else ((if String.eqb name n_any_m then [n_any_py] else []) ++ List.concat gs)%list.

Definition tn_core_with (nm_core : nm -> core) (t : tn) : core :=
  match t with
  | TN nullable name gs =>
      let v := variant_core name (map nm_core gs) in if nullable then Type_ "Optional" [v] else v
  end.
Fixpoint nm_core (n : nm) : core :=
  match n with
  | NM [] => Empty
  | NM [t] => tn_core_with nm_core t
  | NM ts => Type_ n_union_py (map (tn_core_with nm_core) ts)
  end.
Definition tn_core : tn -> core := tn_core_with nm_core.

Definition tn_adds_with (nm_adds : nm -> list string) (t : tn) : list string :=
  match t with
  | TN nullable name gs =>
      ((if nullable then ["Optional"] else []) ++ variant_adds name (map nm_adds gs))%list
  end.
Fixpoint nm_adds (n : nm) : list string :=
  match n with
  | NM [] => []
  | NM [t] => tn_adds_with nm_adds t
  | NM ts => n_union_py :: List.concat (map (tn_adds_with nm_adds) ts)
  end.
Definition tn_adds : tn -> list string := tn_adds_with nm_adds.

Lemma smap_nf {X} (f : X -> imports -> core * imports) (g : X -> core) (h : X -> list string) l :
  Forall (fun x => forall i, f x i = (g x, adds (h x) i)) l ->
  forall i, smap f l i = (map g l, adds (List.concat (map h l)) i).
Proof.
  induction 1 as [|x l Hx _ IH]; intros i; [reflexivity|].
  cbn [smap map List.concat]. rewrite Hx, IH, adds_app. reflexivity.
Qed.

Lemma tn_variant_nf name gs :
  Forall (fun g => forall i, nm_to_py g i = (nm_core g, adds (nm_adds g) i)) gs ->
  forall i, tn_variant name gs i = (variant_core name (map nm_core gs), adds (variant_adds name (map nm_adds gs)) i).
Proof.
  intros H i. unfold tn_variant, variant_core, variant_adds.
  destruct (String.eqb name n_tuple_m); [cbv zeta; rewrite (smap_nf _ _ _ _ H); reflexivity|].
  destruct (String.eqb name n_callable_m).
  - destruct gs as [|a [|r rest]]; [reflexivity | |].
    + inversion H as [|? ? Ha _]; subst. cbv zeta. rewrite Ha. cbn [map firstn List.concat]. rewrite app_nil_r. reflexivity.
    + inversion H as [|? ? Ha Hr]; subst. inversion Hr as [|? ? Hr1 _]; subst. cbv zeta. rewrite Ha, Hr1.
      cbn [map firstn List.concat]. rewrite app_nil_r.
      change (adds (n_callable_py :: nm_adds a ++ nm_adds r)%list i)
        with (adds (nm_adds a ++ nm_adds r) (add_from_import "typing" n_callable_py i)).
      rewrite adds_app. reflexivity.
  - cbv zeta. rewrite (smap_nf _ _ _ _ H). destruct (String.eqb name n_any_m); reflexivity.
Qed.

Lemma nm_to_py_nf : forall n i, nm_to_py n i = (nm_core n, adds (nm_adds n) i).
Proof.
  apply (nm_ind2 (fun n => forall i, nm_to_py n i = (nm_core n, adds (nm_adds n) i))
                 (fun t => forall i, tn_to_py t i = (tn_core t, adds (tn_adds t) i))).
  - intros ms H i. rewrite nm_to_py_unfold. destruct ms as [|t [|t2 r]]; [reflexivity | |].
    + inversion H; subst. auto.
    + cbv zeta. rewrite (smap_nf _ _ _ _ H). reflexivity.
  - intros b name gs H i. rewrite tn_to_py_variant. destruct b; cbv zeta; rewrite (tn_variant_nf _ _ H); reflexivity.
Qed.

Lemma tn_to_py_nf t i : tn_to_py t i = (tn_core t, adds (tn_adds t) i).
Proof. pose proof (nm_to_py_nf (NM [t]) i) as H. rewrite nm_to_py_unfold in H. exact H. Qed.

Lemma opt_nm_to_py_nf o i :
  opt_nm_to_py o i = Some (option_map nm_core o, adds (match o with Some n => nm_adds n | None => [] end) i).
Proof. destruct o as [n|]; [|reflexivity]. cbn [opt_nm_to_py option_map]. unfold lift. rewrite nm_to_py_nf. reflexivity. Qed.

Lemma tn_core_type t : exists lit gs, tn_core t = Type_ lit gs.
Proof.
  destruct t as [[] name gs]; cbn [tn_core tn_core_with]; unfold variant_core;
    repeat destruct (String.eqb _ _); eexists; eexists; reflexivity.
Qed.

Definition is_tail (c : core) : bool :=
  match c with
  | Block _ | IfElse _ _ _ | Match _ _ | Case _ _ | TryExcept _ _ _ | ExceptId _ _ _ | Except _ _ => true
  | _ => false
  end.

Section tail_ind.
  Variable P : core -> Prop.
  Hypothesis Hleaf : forall c, is_tail c = false -> P c.
  Hypothesis HBlock : forall l, Forall P l -> P (Block l).
  Hypothesis HIfElse : forall c t e, P t -> P e -> P (IfElse c t e).
  Hypothesis HMatch : forall e cs, Forall P cs -> P (Match e cs).
  Hypothesis HCase : forall e b, P b -> P (Case e b).
  Hypothesis HTry : forall s a ex, P a -> Forall P ex -> P (TryExcept s a ex).
  Hypothesis HExceptId : forall i cl b, P b -> P (ExceptId i cl b).
  Hypothesis HExcept : forall cl b, P b -> P (Except cl b).
  Fixpoint tail_ind (c : core) : P c :=
    let all := fix go (l : list core) : Forall P l :=
      match l with [] => Forall_nil _ | x :: r => Forall_cons _ (tail_ind x) (go r) end in
    match c return P c with
    | Block l => HBlock l (all l)
    | IfElse c t e => HIfElse c t e (tail_ind t) (tail_ind e)
    | Match e cs => HMatch e cs (all cs)
    | Case e b => HCase e b (tail_ind b)
    | TryExcept s a ex => HTry s a ex (tail_ind a) (all ex)
    | ExceptId i cl b => HExceptId i cl b (tail_ind b)
    | Except cl b => HExcept cl b (tail_ind b)
    | other => Hleaf other eq_refl
    end.
End tail_ind.

Fixpoint tmap (f : core -> core) (e : list core) (c : core) : core :=
  match c with
  | Block [] => Block e
  | Block sts => Block (replace_last (tmap f e) sts)
  | IfElse cond t el => IfElse cond (tmap f e t) (tmap f e el)
  | Match x cases => Match x (map (tmap f e) cases)
  | Case x b => Case x (tmap f e b)
  | TryExcept s a ex => TryExcept s (tmap f e a) (map (tmap f e) ex)
  | ExceptId i cl b => ExceptId i cl (tmap f e b)
  | Except cl b => Except cl (tmap f e b)
  | other => f other
  end.

Lemma tmap_leaf f e c : is_tail c = false -> tmap f e c = f c.
Proof. destruct c; try discriminate; reflexivity. Qed.
Lemma tmap_block f e x l : tmap f e (Block (x :: l)) = Block (replace_last (tmap f e) (x :: l)).
Proof. reflexivity. Qed.

Lemma replace_last_ext {X} (f g : X -> X) l :
  (forall x, In x l -> f x = g x) -> replace_last f l = replace_last g l.
Proof.
  induction l as [|x l IH]; intros H; [reflexivity|]. cbn [replace_last]. destruct l as [|y l].
  - rewrite H by (left; reflexivity). reflexivity.
  - rewrite IH by (intros z Hz; apply H; right; exact Hz). reflexivity.
Qed.
Lemma map_replace_last {X} (h f g : X -> X) l :
  (forall x, In x l -> h (f x) = g (h x)) -> map h (replace_last f l) = replace_last g (map h l).
Proof.
  induction l as [|x l IH]; intros H; [reflexivity|]. cbn [replace_last map]. destruct l as [|y l].
  - cbn [map]. rewrite H by (left; reflexivity). reflexivity.
  - cbn [map] in *. rewrite IH by (intros z Hz; apply H; right; exact Hz). reflexivity.
Qed.

Lemma append_ret_block x l : append_ret (Block (x :: l)) = Block (replace_last append_ret (x :: l)).
Proof. reflexivity. Qed.
Lemma append_assign_block t n x l i :
  append_assign t n (Block (x :: l)) i =
  let '(sts', i') := smap_last (append_assign t n) (x :: l) i in (Block sts', i').
Proof. reflexivity. Qed.

Definition ret_leaf (c : core) : core := if skip_return c then c else Un CuReturn c.

Lemma append_ret_tmap : forall c, append_ret c = tmap ret_leaf [Un CuReturn None_] c.
Proof.
  apply tail_ind; try (intros; cbn [append_ret tmap]; congruence).
  - intros c H. destruct c; try discriminate H; reflexivity.
  - intros l H. destruct l as [|x l]; [reflexivity|]. rewrite append_ret_block, tmap_block. f_equal.
    apply replace_last_ext, Forall_forall, H.
  - intros e cs H. cbn [append_ret tmap]. f_equal. apply map_ext_in, Forall_forall, H.
  - intros s a ex Ha H. cbn [append_ret tmap]. rewrite Ha. f_equal. apply map_ext_in, Forall_forall, H.
Qed.

Definition last_leaves (tleaves : core -> list core) : list core -> list core :=
  fix lst (l : list core) : list core :=
    match l with [] => [] | x :: r => match r with [] => tleaves x | _ :: _ => lst r end end.
Fixpoint tleaves (c : core) : list core :=
  match c with
  | Block sts => last_leaves tleaves sts
  | IfElse _ t e => tleaves t ++ tleaves e
  | Match _ cs => flat_map tleaves cs
  | Case _ b | ExceptId _ _ b | Except _ b => tleaves b
  | TryExcept _ a ex => tleaves a ++ flat_map tleaves ex
  | other => [other]
  end.

Definition onm_core (o : option nm) : option core := option_map nm_core o.
Definition onm_adds (o : option nm) : list string := match o with Some n => nm_adds n | None => [] end.
Definition asg_leaf (t : core) (ty : option core) (c : core) : core :=
  if skip_assign c then c else VarDef t ty (Some c).
(** the annotation of the assigned variable is rendered once per assigning leaf *)
Definition asg_adds (n : option nm) (ls : list core) : list string :=
  flat_map (fun x => if skip_assign x then [] else onm_adds n) ls.

Lemma asg_adds_app n l1 l2 : asg_adds n (l1 ++ l2) = (asg_adds n l1 ++ asg_adds n l2)%list.
Proof. apply flat_map_app. Qed.

Lemma assign_leaf_nf t n c i :
  assign_leaf t n c i = (asg_leaf t (onm_core n) c, adds (asg_adds n [c]) i).
Proof.
  unfold assign_leaf, asg_leaf, asg_adds. cbn [flat_map]. rewrite app_nil_r.
  destruct (skip_assign c); [reflexivity|]. destruct n as [n|]; [|reflexivity].
  rewrite nm_to_py_nf. reflexivity.
Qed.

Section append_assign_nf.
  Variables (t : core) (n : option nm).
  Let P (c : core) : Prop := forall i,
    append_assign t n c i = (tmap (asg_leaf t (onm_core n)) [] c, adds (asg_adds n (tleaves c)) i).

  Lemma smap_assign_nf l : Forall P l -> forall i,
    smap (append_assign t n) l i
    = (map (tmap (asg_leaf t (onm_core n)) []) l, adds (asg_adds n (flat_map tleaves l)) i).
  Proof.
    induction 1 as [|y l Hy _ IH]; intros i; [reflexivity|].
    cbn [smap map flat_map]. rewrite Hy, IH, asg_adds_app, adds_app. reflexivity.
  Qed.
  Lemma smap_last_assign_nf l : Forall P l -> forall i,
    smap_last (append_assign t n) l i
    = (replace_last (tmap (asg_leaf t (onm_core n)) []) l, adds (asg_adds n (last_leaves tleaves l)) i).
  Proof.
    induction 1 as [|y l Hy _ IH]; intros i; [reflexivity|].
    cbn [smap_last replace_last last_leaves]. destruct l as [|z l]; [rewrite Hy | rewrite IH]; reflexivity.
  Qed.

  Lemma append_assign_nf : forall c, P c.
  Proof.
    apply tail_ind; unfold P.
    - intros c Hc i. rewrite tmap_leaf by exact Hc. destruct c; try discriminate Hc; apply assign_leaf_nf.
    - intros l H i. destruct l as [|x l]; [reflexivity|].
      rewrite append_assign_block, tmap_block. cbv zeta. rewrite (smap_last_assign_nf _ H). reflexivity.
    - intros c th el Ht He i. cbn [append_assign tmap tleaves]. rewrite Ht, He, asg_adds_app, adds_app. reflexivity.
    - intros e cs H i. cbn [append_assign tmap tleaves]. rewrite (smap_assign_nf _ H). reflexivity.
    - intros e b Hb i. cbn [append_assign tmap tleaves]. rewrite Hb. reflexivity.
    - intros s a ex Ha H i. cbn [append_assign tmap tleaves].
      rewrite Ha, (smap_assign_nf _ H), asg_adds_app, adds_app. reflexivity.
    - intros i0 cl b Hb i. cbn [append_assign tmap tleaves]. rewrite Hb. reflexivity.
    - intros cl b Hb i. cbn [append_assign tmap tleaves]. rewrite Hb. reflexivity.
  Qed.
End append_assign_nf.

Section TailHom.
  Variable h : core -> core.
  Hypothesis h_tail : forall c, is_tail (h c) = is_tail c.
  Hypothesis h_Block : forall l, h (Block l) = Block (map h l).
  Hypothesis h_IfElse : forall c t e, h (IfElse c t e) = IfElse (h c) (h t) (h e).
  Hypothesis h_Match : forall e cs, h (Match e cs) = Match (h e) (map h cs).
  Hypothesis h_Case : forall e b, h (Case e b) = Case (h e) (h b).
  Hypothesis h_Try : forall s a ex, h (TryExcept s a ex) = TryExcept (option_map h s) (h a) (map h ex).
  Hypothesis h_ExceptId : forall i cl b, h (ExceptId i cl b) = ExceptId (h i) (h cl) (h b).
  Hypothesis h_Except : forall cl b, h (Except cl b) = Except (h cl) (h b).

  Lemma h_tmap f f' e : (forall c, is_tail c = false -> h (f c) = f' (h c)) ->
    forall c, h (tmap f e c) = tmap f' (map h e) (h c).
  Proof.
    intros Hf. apply tail_ind.
    - intros c Hc. rewrite !tmap_leaf by (rewrite ?h_tail; exact Hc). apply Hf, Hc.
    - intros l H. destruct l as [|x l]; [cbn [tmap]; rewrite !h_Block; reflexivity|].
      rewrite tmap_block, !h_Block. cbn [map]. rewrite tmap_block. f_equal.
      apply (map_replace_last h _ _ (x :: l)), Forall_forall, H.
    - intros c t el Ht He. cbn [tmap]. rewrite !h_IfElse. cbn [tmap]. congruence.
    - intros x cs H. cbn [tmap]. rewrite !h_Match. cbn [tmap]. f_equal. rewrite !map_map.
      apply map_ext_in, Forall_forall, H.
    - intros x b Hb. cbn [tmap]. rewrite !h_Case. cbn [tmap]. congruence.
    - intros s a ex Ha H. cbn [tmap]. rewrite !h_Try. cbn [tmap]. rewrite Ha. f_equal. rewrite !map_map.
      apply map_ext_in, Forall_forall, H.
    - intros i cl b Hb. cbn [tmap]. rewrite !h_ExceptId. cbn [tmap]. congruence.
    - intros cl b Hb. cbn [tmap]. rewrite !h_Except. cbn [tmap]. congruence.
  Qed.
End TailHom.

Lemma hm_insert_inv k v m e : In e (hm_insert k v m) -> e = (k, v) \/ In e m.
Proof.
  induction m as [|[k0 v0] r IH]; cbn [hm_insert].
  - intros [H|[]]. left. symmetry. exact H.
  - destruct (key_eqb k k0).
    + intros [H|H]; [left; symmetry; exact H | right; right; exact H].
    + intros [H|H]; [right; left; exact H|]. destruct (IH H) as [H'|H']; [left; exact H' | right; right; exact H'].
Qed.

Lemma stmt_entry_stmt i s : snd (snd (stmt_entry i s)) = s.
Proof. destruct s; reflexivity. Qed.

Lemma body_entries_in stmts : forall i m e,
  In e (body_entries i stmts m) -> In e m \/ exists k s, In s stmts /\ e = stmt_entry k s.
Proof.
  induction stmts as [|s r IH]; intros i m e; cbn [body_entries]; [auto|].
  destruct (stmt_entry i s) as [k v] eqn:E. intros H. destruct (IH _ _ _ H) as [H'|(k' & s' & Hs & ->)].
  - destruct (hm_insert_inv _ _ _ _ H') as [->|H'']; [|left; exact H''].
    right. exists i, s. split; [left; reflexivity | symmetry; exact E].
  - right. exists k', s'. split; [right; exact Hs | reflexivity].
Qed.

Lemma insert_by_pos_in e l x : In x (insert_by_pos e l) <-> x = e \/ In x l.
Proof.
  induction l as [|y r IH]; cbn [insert_by_pos In].
  - split; [intros [H|[]]; left; symmetry; exact H | intros [H|[]]; left; symmetry; exact H].
  - destruct (pos_ltb (fst e) (fst y)); cbn [In]; [|rewrite IH]; split; intros H;
      repeat (destruct H as [H|H]); auto.
Qed.

Lemma hm_get_in k m v : hm_get k m = Some v -> exists k', In (k', v) m.
Proof.
  induction m as [|[k0 v0] r IH]; cbn [hm_get]; [discriminate|].
  destruct (key_eqb k k0).
  - intros E. inversion E. subst. exists k0. left. reflexivity.
  - intros H. destruct (IH H) as [k' Hk]. exists k'. right. exact Hk.
Qed.

Lemma sort_by_pos_in l x : In x (sort_by_pos l) <-> In x l.
Proof.
  unfold sort_by_pos. induction l as [|y r IH]; cbn [fold_right In]; [tauto|].
  rewrite insert_by_pos_in, IH. split; intros [H|H]; auto.
Qed.

Definition self_arg (x : core) : bool :=
  match x with FunArg _ (Id lit) _ _ => String.eqb lit n_self_ | _ => false end.
Definition fd_parts (c : core) : option (list core * core) :=
  match c with FunDef _ _ arg _ body => Some (arg, body) | _ => None end.
Definition arg_vars (a : core) : list core := match a with FunArg _ var _ _ => [var] | _ => [] end.
Definition self_assign (v : core) : core := Assign (PropertyCall (Id n_self_) v) v OpAssign.

Definition init_parts (old : option core) (class_args pinits : list core) : list core * list core :=
  match old with
  | Some c => match fd_parts c with
              | Some (arg, body) => (arg, pinits ++ block_stmts body)
              | None => ([], pinits)
              end
  | None => (class_args, pinits)
  end%list.
Definition mk_init (args sts : list core) : option core :=
  let args := if match args with x :: _ => self_arg x | [] => false end then args else Id n_self_ :: args in
  match sts with [] => None | _ => Some (FunDef [] n_init args None (Block sts)) end.

Lemma class_init_eq old args ps :
  class_init old args ps =
  let pis := map parent_init ps in
  let fresh := filter (fun v => negb (existsb (fun pa => existsb (core_eqb_shallow v) pa) (map snd pis)))
                      (flat_map arg_vars args) in
  let '(a, s) := init_parts old args (map fst pis) in
  mk_init a (s ++ map self_assign fresh).
Proof. destruct old as [[]|]; reflexivity. Qed.

Definition init_pos (m : list entry) : nat * nat :=
  fold_right (fun e acc =>
                match snd (snd e) with
                | VarDef _ _ _ => let p := (S (fst (fst (snd e))), 1) in if pos_ltb acc p then p else acc
                | _ => acc
                end) (0, 1) m.

(** the model has this comparison of identifiers under three names: [core_id_eqb] is the same again *)
Lemma eqb_shallow_key a b : core_eqb_shallow a b = key_eqb a b.
Proof. reflexivity. Qed.

Section ClassHom.
  Variable h : core -> core.
  Hypothesis h_key : forall a b, key_eqb (h a) (h b) = key_eqb a b.
  Hypothesis h_parent_name : forall p, parent_name (h p) = option_map h (parent_name p).
  Hypothesis h_parent_init : forall p, parent_name p <> None ->
    parent_init (h p) = (h (fst (parent_init p)), map h (snd (parent_init p))).
  Hypothesis h_arg_vars : forall a, arg_vars (h a) = map h (arg_vars a).
  Hypothesis h_self_arg : forall x, self_arg (h x) = self_arg x.
  Hypothesis h_fd_parts : forall c, fd_parts (h c) = option_map (fun p => (map h (fst p), h (snd p))) (fd_parts c).
  Hypothesis h_block_stmts : forall b, block_stmts (h b) = map h (block_stmts b).
  Hypothesis h_self : h (Id n_self_) = Id n_self_.
  Hypothesis h_init : h (Id n_init) = Id n_init.
  Hypothesis h_self_assign : forall v, h (self_assign v) = self_assign (h v).
  Hypothesis h_init_def : forall a sts,
    h (FunDef [] n_init a None (Block sts)) = FunDef [] n_init (map h a) None (Block (map h sts)).
  Hypothesis h_vardef : forall c (A B : nat * nat),
    match h c with VarDef _ _ _ => A | _ => B end = match c with VarDef _ _ _ => A | _ => B end.
  Hypothesis h_Pass : h Pass = Pass.

  Definition hvalue (v : (nat * nat) * core) : (nat * nat) * core := (fst v, h (snd v)).
  Definition hentry (e : entry) : entry := (h (fst e), hvalue (snd e)).
  Definition hpair (x : list core * list core) : list core * list core := (map h (fst x), map h (snd x)).
  Hypothesis h_stmt_entry : forall i s, stmt_entry i (h s) = hentry (stmt_entry i s).

  Lemma hm_insert_hom k v m : hm_insert (h k) (hvalue v) (map hentry m) = map hentry (hm_insert k v m).
  Proof.
    induction m as [|[k' v'] m IH]; [reflexivity|]. cbn [map hm_insert hentry fst snd].
    rewrite h_key. destruct (key_eqb k k'); [reflexivity|]. cbn [map]. rewrite IH. reflexivity.
  Qed.
  Lemma hm_get_hom k m : hm_get (h k) (map hentry m) = option_map hvalue (hm_get k m).
  Proof.
    induction m as [|[k' v'] m IH]; [reflexivity|]. cbn [map hm_get hentry fst snd].
    rewrite h_key. destruct (key_eqb k k'); [reflexivity | exact IH].
  Qed.
  Lemma body_entries_hom stmts : forall i m,
    body_entries i (map h stmts) (map hentry m) = map hentry (body_entries i stmts m).
  Proof.
    induction stmts as [|s r IH]; intros i m; [reflexivity|]. cbn [map body_entries].
    rewrite h_stmt_entry. destruct (stmt_entry i s) as [k v]. cbn [hentry fst snd].
    rewrite hm_insert_hom. apply IH.
  Qed.
  Lemma insert_by_pos_hom e l : insert_by_pos (hvalue e) (map hvalue l) = map hvalue (insert_by_pos e l).
  Proof.
    induction l as [|x l IH]; [reflexivity|]. cbn [map insert_by_pos hvalue fst].
    destruct (pos_ltb (fst e) (fst x)); [reflexivity|]. cbn [map]. rewrite <- IH. reflexivity.
  Qed.
  Lemma sort_by_pos_hom l : sort_by_pos (map hvalue l) = map hvalue (sort_by_pos l).
  Proof.
    induction l as [|x l IH]; [reflexivity|]. unfold sort_by_pos in *. cbn [map fold_right].
    rewrite IH. apply insert_by_pos_hom.
  Qed.
  Lemma init_pos_hom m : init_pos (map hentry m) = init_pos m.
  Proof.
    induction m as [|[k [p c]] m IH]; [reflexivity|]. unfold init_pos in *.
    cbn [map fold_right hentry hvalue fst snd]. rewrite IH. apply h_vardef.
  Qed.

  Lemma parent_inits_hom ps : Forall (fun p => parent_name p <> None) ps ->
    map parent_init (map h ps) = map (fun pi => (h (fst pi), map h (snd pi))) (map parent_init ps).
  Proof. induction 1 as [|p ps Hp _ IH]; [reflexivity|]. cbn [map]. rewrite (h_parent_init p Hp), IH. reflexivity. Qed.

  Lemma filter_fresh_hom vars pas :
    filter (fun v => negb (existsb (fun pa => existsb (core_eqb_shallow v) pa) (map (map h) pas))) (map h vars)
    = map h (filter (fun v => negb (existsb (fun pa => existsb (core_eqb_shallow v) pa) pas)) vars).
  Proof.
    assert (E : forall v, existsb (fun pa => existsb (core_eqb_shallow (h v)) pa) (map (map h) pas)
                          = existsb (fun pa => existsb (core_eqb_shallow v) pa) pas).
    { intros v. induction pas as [|pa pas IHp]; [reflexivity|]. cbn [map existsb]. rewrite IHp. f_equal.
      induction pa as [|x pa IH]; [reflexivity|]. cbn [map existsb]. rewrite !eqb_shallow_key, h_key, IH. reflexivity. }
    induction vars as [|v r IH]; [reflexivity|]. cbn [map filter]. rewrite E.
    destruct (existsb _ pas); cbn [negb map]; rewrite IH; reflexivity.
  Qed.

  Lemma arg_vars_hom args : flat_map arg_vars (map h args) = map h (flat_map arg_vars args).
  Proof.
    induction args as [|a r IH]; [reflexivity|]. cbn [map flat_map]. rewrite map_app, IH, h_arg_vars. reflexivity.
  Qed.

  Lemma init_parts_hom old args pinits :
    init_parts (option_map h old) (map h args) (map h pinits) = hpair (init_parts old args pinits).
  Proof.
    destruct old as [c|]; [|reflexivity]. cbn [option_map init_parts]. rewrite h_fd_parts.
    destruct (fd_parts c) as [[arg body]|]; [|reflexivity].
    unfold hpair. cbn [option_map fst snd]. rewrite h_block_stmts, map_app. reflexivity.
  Qed.

  Lemma mk_init_hom a sts : mk_init (map h a) (map h sts) = option_map h (mk_init a sts).
  Proof.
    unfold mk_init. cbv zeta.
    replace (match map h a with x :: _ => self_arg x | [] => false end)
      with (match a with x :: _ => self_arg x | [] => false end)
      by (destruct a as [|x r]; [reflexivity | cbn [map]; rewrite h_self_arg; reflexivity]).
    destruct sts as [|s0 r0]; [reflexivity|]. cbn [option_map]. rewrite h_init_def.
    destruct (match a with x :: _ => self_arg x | [] => false end); cbn [map]; rewrite ?h_self; reflexivity.
  Qed.

  Lemma class_init_hom old args ps : Forall (fun p => parent_name p <> None) ps ->
    class_init (option_map h old) (map h args) (map h ps) = option_map h (class_init old args ps).
  Proof.
    intros Hgood. rewrite !class_init_eq. cbv zeta. rewrite (parent_inits_hom ps Hgood).
    set (pis := map parent_init ps).
    replace (map fst (map (fun pi => (h (fst pi), map h (snd pi))) pis)) with (map h (map fst pis))
      by (rewrite !map_map; reflexivity).
    replace (map snd (map (fun pi => (h (fst pi), map h (snd pi))) pis)) with (map (map h) (map snd pis))
      by (rewrite !map_map; reflexivity).
    rewrite arg_vars_hom, filter_fresh_hom, init_parts_hom. set (fresh := filter _ (flat_map arg_vars args)). destruct (init_parts old args (map fst pis)) as [a s].
    unfold hpair. cbn [fst snd].
    replace (map self_assign (map h fresh)) with (map h (map self_assign fresh))
      by (rewrite !map_map; apply map_ext, h_self_assign).
    rewrite <- map_app. apply mk_init_hom.
  Qed.

  Lemma assemble_class_hom stmts args ps :
    assemble_class (map h stmts) (map h args) (map h ps) = option_map hpair (assemble_class stmts args ps).
  Proof.
    unfold assemble_class.
    replace (map parent_name (map h ps)) with (map (option_map h) (map parent_name ps))
      by (rewrite !map_map; apply map_ext; intros p; symmetry; apply h_parent_name).
    set (names := map parent_name ps).
    replace (existsb (fun o => match o with None => true | Some _ => false end) (map (option_map h) names))
      with (existsb (fun o => match o with None => true | Some _ => false end) names)
      by (induction names as [|[] l IH]; cbn [map existsb option_map]; congruence).
    destruct (existsb _ names) eqn:Hex; [reflexivity|].
    assert (Hgood : Forall (fun p => parent_name p <> None) ps).
    { subst names. clear -Hex. induction ps as [|p ps IH]; [constructor|]. cbn [map existsb] in Hex.
      apply orb_false_iff in Hex as [H1 H2]. constructor; [|apply IH, H2]. destruct (parent_name p); [discriminate | discriminate H1]. }
    pose proof (body_entries_hom stmts 0 []) as Hm. cbn [map] in Hm. rewrite Hm. clear Hm.
    set (m := body_entries 0 stmts []).
    pose proof (hm_get_hom (Id n_init) m) as Hg. rewrite h_init in Hg. rewrite Hg.
    fold (init_pos (map hentry m)). fold (init_pos m). rewrite init_pos_hom.
    set (old := match hm_get (Id n_init) m with Some (_, f) => Some f | None => None end).
    replace (match option_map hvalue (hm_get (Id n_init) m) with Some (_, f) => Some f | None => None end)
      with (option_map h old) by (subst old; destruct (hm_get (Id n_init) m) as [[p f]|]; reflexivity).
    rewrite (class_init_hom _ _ _ Hgood).
    set (pos := match hm_get (Id n_init) m with Some (p, _) => p | None => init_pos m end).
    replace (match option_map hvalue (hm_get (Id n_init) m) with Some (p, _) => p | None => init_pos m end)
      with pos by (subst pos; destruct (hm_get (Id n_init) m) as [[p f]|]; reflexivity).
    set (m' := match class_init old args ps with Some ni => hm_insert (Id n_init) (pos, ni) m | None => m end).
    replace (match option_map h (class_init old args ps) with
             | Some ni => hm_insert (Id n_init) (pos, ni) (map hentry m)
             | None => map hentry m
             end) with (map hentry m').
    2:{ subst m'. destruct (class_init old args ps) as [ni|]; [|reflexivity].
        rewrite <- hm_insert_hom, h_init. reflexivity. }
    unfold hpair. cbn [option_map fst snd]. f_equal. f_equal.
    - clear. induction names as [|[] l IH]; cbn [map flat_map option_map app]; congruence.
    - replace (map snd (map hentry m')) with (map hvalue (map snd m')) by (rewrite !map_map; reflexivity).
      rewrite sort_by_pos_hom.
      replace (map snd (map hvalue (sort_by_pos (map snd m')))) with (map h (map snd (sort_by_pos (map snd m'))))
        by (rewrite !map_map; reflexivity).
      destruct (map snd (sort_by_pos (map snd m'))); cbn [map]; rewrite ?h_Pass; reflexivity.
  Qed.
End ClassHom.

Lemma skip_return_erase c : skip_return (erase c) = skip_return c.
Proof. destruct c; reflexivity. Qed.
Lemma skip_assign_erase c : skip_assign (erase c) = skip_assign c.
Proof. unfold skip_assign. rewrite skip_return_erase. destruct c; reflexivity. Qed.
Lemma is_tail_erase c : is_tail (erase c) = is_tail c.
Proof. destruct c; reflexivity. Qed.

Lemma erase_tmap f f' e : (forall c, is_tail c = false -> erase (f c) = f' (erase c)) ->
  forall c, erase (tmap f e c) = tmap f' (map erase e) (erase c).
Proof. apply (h_tmap erase is_tail_erase); reflexivity. Qed.

Lemma erase_append_ret c : erase (append_ret c) = append_ret (erase c).
Proof.
  rewrite !append_ret_tmap. apply erase_tmap. intros c0 _. unfold ret_leaf.
  rewrite skip_return_erase. destruct (skip_return c0); reflexivity.
Qed.

Lemma erase_asg t ty c :
  erase (tmap (asg_leaf t ty) [] c) = tmap (asg_leaf (erase t) None) [] (erase c).
Proof.
  apply (erase_tmap _ _ []). intros c0 _. unfold asg_leaf.
  rewrite skip_assign_erase. destruct (skip_assign c0); reflexivity.
Qed.

Lemma block_stmts_erase b : block_stmts (erase b) = map erase (block_stmts b).
Proof. destruct b; reflexivity. Qed.

Lemma assemble_class_erase stmts args ps :
  assemble_class (map erase stmts) (map erase args) (map erase ps)
  = option_map (hpair erase) (assemble_class stmts args ps).
Proof.
  apply (assemble_class_hom erase); try reflexivity; try (intros c; destruct c; reflexivity).
  - (* h_key *) intros a b. destruct a; try reflexivity. destruct b; reflexivity.
  - (* h_parent_name *) intros p. destruct p; try reflexivity. match goal with |- context [FunctionCall ?f _] => destruct f; reflexivity end.
  - (* h_parent_init *) intros p _. destruct p; try reflexivity. match goal with |- context [FunctionCall ?f _] => destruct f; reflexivity end.
  - (* h_self_arg *) intros x. destruct x; try reflexivity. match goal with |- context [FunArg _ ?v _ _] => destruct v; reflexivity end.
  - (* h_stmt_entry *) intros i s. destruct s; reflexivity.
Qed.

Lemma crel_refl c : crel c c. Proof. reflexivity. Qed.

Lemma map_erase_F2 l1 l0 : Forall2 crel l1 l0 -> map erase l1 = map erase l0.
Proof. induction 1 as [|x y l1 l0 H _ IH]; [reflexivity|]. cbn [map]. rewrite H, IH. reflexivity. Qed.

Definition orel (o1 o0 : option core) : Prop := erase_opt o1 = erase_opt o0.

Lemma mrel_mmap {X Y} (R : Y -> Y -> Prop) (f1 f0 : X -> M Y) l :
  (forall x, In x l -> mrel R (f1 x) (f0 x)) -> mrel (Forall2 R) (mmap f1 l) (mmap f0 l).
Proof.
  induction l as [|x l IH]; intros H; cbn [mmap].
  - apply mrel_ret. constructor.
  - eapply mrel_bind; [apply H; left; reflexivity|]. intros c1 c0 Hc.
    eapply mrel_bind; [apply IH; intros y Hy; apply H; right; exact Hy|]. intros cs1 cs0 Hcs.
    apply mrel_ret. constructor; assumption.
Qed.

Lemma mrel_mfiltermap (g1 g0 : ast -> M (option core)) l :
  (forall x, In x l -> mrel orel (g1 x) (g0 x)) -> mrel (Forall2 crel) (mfiltermap g1 l) (mfiltermap g0 l).
Proof.
  induction l as [|x l IH]; intros H; cbn [mfiltermap].
  - apply mrel_ret. constructor.
  - eapply mrel_bind; [apply H; left; reflexivity|]. intros c1 c0 Hc.
    eapply mrel_bind; [apply IH; intros y Hy; apply H; right; exact Hy|]. intros cs1 cs0 Hcs.
    apply mrel_ret. unfold orel in Hc. destruct c1, c0; cbn in Hc; try discriminate; [|exact Hcs].
    constructor; [unfold crel; congruence | exact Hcs].
Qed.

Lemma mrel_mopt (f1 f0 : ast -> M core) o :
  (forall x, o = Some x -> mrel crel (f1 x) (f0 x)) -> mrel orel (mopt f1 o) (mopt f0 o).
Proof.
  destruct o as [x|]; intros H; cbn [mopt].
  - eapply mrel_bind; [apply H; reflexivity|]. intros c1 c0 Hc. apply mrel_ret. unfold orel. cbn. rewrite Hc. reflexivity.
  - apply mrel_ret. reflexivity.
Qed.

Lemma mrel_nm n : mrel eq (lift (nm_to_py n)) (lift (nm_to_py n)).
Proof. intros i1 i0 Hi. unfold lift. rewrite !nm_to_py_nf. split; [reflexivity | apply adds_irel, Hi]. Qed.
Lemma mrel_tn t : mrel eq (lift (tn_to_py t)) (lift (tn_to_py t)).
Proof. intros i1 i0 Hi. unfold lift. rewrite !tn_to_py_nf. split; [reflexivity | apply adds_irel, Hi]. Qed.
Lemma mrel_opt_nm o : mrel eq (opt_nm_to_py o) (opt_nm_to_py o).
Proof. intros i1 i0 Hi. rewrite !opt_nm_to_py_nf. split; [reflexivity | apply adds_irel, Hi]. Qed.

(** an annotation rendered on one side only, or on both: anything goes for the value *)
Definition anyrel {X} (_ _ : X) : Prop := True.
Lemma opt_nm_keeps o i : match opt_nm_to_py o i with Some (_, j) => irel j i | None => False end.
Proof. rewrite opt_nm_to_py_nf. apply adds_self. Qed.
Lemma mrel_ann (b1 b0 : bool) (m : M (option core)) :
  (forall i, match m i with Some (_, j) => irel j i | None => False end) ->
  mrel anyrel (if b1 then m else ret None) (if b0 then m else ret None).
Proof.
  intros Hm i1 i0 Hi. pose proof (Hm i1) as H1. pose proof (Hm i0) as H0.
  destruct b1, b0; cbn [ret]; try (split; [exact I | exact Hi]).
  - destruct (m i1) as [[x1 j1]|], (m i0) as [[x0 j0]|]; try contradiction. split; [exact I|].
    eapply irel_trans; [exact H1|]. eapply irel_trans; [exact Hi|]. apply irel_sym, H0.
  - destruct (m i1) as [[x1 j1]|]; try contradiction. split; [exact I|]. eapply irel_trans; eassumption.
  - destruct (m i0) as [[x0 j0]|]; try contradiction. split; [exact I|].
    eapply irel_trans; [exact Hi|]. apply irel_sym, H0.
Qed.

Lemma mrel_touch f :
  (forall i1 i0, irel i1 i0 -> irel (f i1) (f i0)) -> mrel anyrel (touch f) (touch f).
Proof. intros H i1 i0 Hi. cbn. split; [exact I | apply H, Hi]. Qed.

Lemma srel_clear s1 s0 :
  srel s1 s0 -> srel (with_last_ret (with_assign s1 None) false) (with_last_ret (with_assign s0 None) false).
Proof. unfold srel. cbn. intuition. Qed.
Lemma srel_expand s1 s0 b : srel s1 s0 -> srel (with_expand s1 b) (with_expand s0 b).
Proof. unfold srel. cbn. intuition. Qed.
Lemma srel_tup_lit s1 s0 : srel s1 s0 -> srel (with_tup_lit s1) (with_tup_lit s0).
Proof. unfold srel. cbn. intuition. Qed.
Lemma srel_last_ret s1 s0 b : srel s1 s0 -> srel (with_last_ret s1 b) (with_last_ret s0 b).
Proof. unfold srel. cbn. intuition. Qed.
Lemma srel_remove_ret s1 s0 b : srel s1 s0 -> srel (with_remove_ret s1 b) (with_remove_ret s0 b).
Proof. unfold srel. cbn. intuition. Qed.
Lemma srel_assign s1 s0 a1 a0 : srel s1 s0 -> arel a1 a0 -> srel (with_assign s1 a1) (with_assign s0 a0).
Proof. unfold srel. cbn. intuition. Qed.
Lemma srel_interface s1 s0 b : srel s1 s0 -> srel (with_interface s1 b) (with_interface s0 b).
Proof. unfold srel. cbn. intuition. Qed.
Lemma srel_def_as_fun_arg s1 s0 b : srel s1 s0 -> srel (with_def_as_fun_arg s1 b) (with_def_as_fun_arg s0 b).
Proof. unfold srel. cbn. intuition. Qed.
Lemma srel_assign_none s1 s0 : srel s1 s0 -> srel (with_assign s1 None) (with_assign s0 None).
Proof. intros H. apply srel_assign; [exact H | exact I]. Qed.

Lemma post_rel st1 st0 r1 r0 :
  srel st1 st0 -> mrel crel r1 r0 -> mrel crel (bind r1 (post st1)) (bind r0 (post st0)).
Proof.
  intros Hs Hr. eapply mrel_bind; [exact Hr|]. intros c1 c0 Hc. unfold post.
  destruct Hs as (_ & _ & _ & _ & Hlast & _ & Ha).
  eapply mrel_bind with (RX := crel).
  - unfold arel in Ha. destruct (assign_to st1) as [[t1 n1]|], (assign_to st0) as [[t0 n0]|]; try contradiction.
    + destruct Ha as [Ht ->]. intros i1 i0 Hi. unfold lift. rewrite !append_assign_nf.
      split; [|apply adds_irel, Hi]. unfold crel in *. rewrite !erase_asg, Ht, Hc. reflexivity.
    + apply mrel_ret, Hc.
  - intros x1 x0 Hx. apply mrel_ret. rewrite Hlast. destruct (last_ret st0); [|exact Hx].
    unfold crel in *. rewrite !erase_append_ret, Hx. reflexivity.
Qed.

Lemma conv_result_clean a st i :
  assign_to st = None -> last_ret st = false -> conv a st i = conv_result a st i.
Proof.
  intros Ha Hl. rewrite conv_unfold. unfold bind, post.
  destruct (conv_result a st i) as [[c j]|]; [|reflexivity]. rewrite Ha, Hl. reflexivity.
Qed.

Definition is_branching (c : core) : bool := match c with IfElse _ _ _ | Match _ _ => true | _ => false end.
Lemma branch_match {X} c (A B : X) :
  match c with IfElse _ _ _ | Match _ _ => A | _ => B end = if is_branching c then A else B.
Proof. destruct c; reflexivity. Qed.

Definition tl_default (v : core) : option core :=
  match v with TupleLiteral els => Some (Tuple (map (fun _ : core => None_) els)) | _ => None end.
Lemma tl_match v ty :
  match v with
  | TupleLiteral els => ret (VarDef v ty (Some (Tuple (map (fun _ : core => None_) els))))
  | _ => ret (VarDef v ty None)
  end = ret (VarDef v ty (tl_default v)).
Proof. destruct v; reflexivity. Qed.

Definition id_lit (c : core) : option string := match c with Id s => Some s | _ => None end.
Lemma id_match {X} c (A : string -> X) (B : X) :
  match c with Id lit => A lit | _ => B end = match id_lit c with Some lit => A lit | None => B end.
Proof. destruct c; reflexivity. Qed.

Definition is_underscore (c : core) : bool := match c with UnderScore => true | _ => false end.
Lemma underscore_match {X} c (A B : X) :
  match c with UnderScore => A | _ => B end = if is_underscore c then A else B.
Proof. destruct c; reflexivity. Qed.
