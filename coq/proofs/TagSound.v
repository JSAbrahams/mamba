(** * TagSound: core expressions that are typable do not go wrong, and evaluate to a tag their type admits

    [tag_sound]: for any class table and signature table that pass the decidable side conditions [tables_ok]
    (operators sound on the core types, joins and [?] preserve tags), every typable core expression, evaluated in an
    environment whose variables carry tags admitted by their declared core types, has no outcome that goes wrong (no
    NameError, no TypeError), and every outcome carries a tag admitted by the synthesised type.
    [tables_ok] holds of the regenerated table without the rows of [known_row] ([tables_ok_outside_known]). *)
From Coq Require Import List String Bool ZArith.
From MambaModel Require Import model.Types model.TypingSig model.PyOps model.Typing model.TagSem
  gen.Stubs gen.StubSigs proofs.TypesProps proofs.TypingProps.
Import ListNotations.
Local Open Scope string_scope.
Local Open Scope list_scope.

Lemma tag_eqb_eq a b : tag_eqb a b = true -> a = b.
Proof. destruct a, b; cbn; intros H; try discriminate; reflexivity. Qed.

Lemma mem_In g l : mem g l = true -> In g l.
Proof. unfold mem. intros H. apply existsb_exists in H as [x [Hx E]]. apply tag_eqb_eq in E. subst. exact Hx. Qed.

Lemma subset_In a b g : subset a b = true -> In g a -> In g b.
Proof. unfold subset. intros H HI. rewrite forallb_forall in H. apply mem_In. exact (H g HI). Qed.

Lemma in_core_In t : in_core t = true -> In t core_tys.
Proof.
  unfold in_core. intros H. apply existsb_exists in H as [u [Hu E]].
  assert (t = u); [|subst; exact Hu].
  cbn in Hu. repeat (destruct Hu as [<- | Hu]; [apply ty_eqb_plain_l in E; exact E|]). destruct Hu.
Qed.

Section Sound.
  Variable cx : ctx.
  Variable sigs : list msig.
  Variable funs : list fsig.
  Variable fields : list (string * string * ty).
  Hypothesis Hok : tables_ok cx sigs = true.
  Notation has_type := (has_type cx sigs funs fields).
  Notation meth_ok := (meth_ok cx sigs).

  Definition core_denv (d : denv) : Prop := forall x v, dlookup d x = Some v -> In (d_ty v) core_tys.
  Definition env_tags (rho : list (string * tag)) (d : denv) : Prop :=
    forall x v, dlookup d x = Some v -> exists g, assoc rho x = Some g /\ In g (tags_of_ty (d_ty v)).
  Definition good (t : ty) (os : list outcome) : Prop :=
    forall o, In o os -> exists g, o = Some g /\ In g (tags_of_ty t).

  Lemma tables_ok_inv :
    ops_sound_b cx sigs = true /\ join_ok_b cx = true /\ quest_ok_b cx = true /\ bool_recv_ok_b cx sigs = true.
  Proof. pose proof Hok as H. unfold tables_ok in H. rewrite !andb_true_iff in H. tauto. Qed.

  Lemma good_single t g : In g (tags_of_ty t) -> good t [Some g].
  Proof. intros H o [<- | []]. eauto. Qed.

  Lemma good_mono t t' os : (forall g, In g (tags_of_ty t) -> In g (tags_of_ty t')) -> good t os -> good t' os.
  Proof. intros M G o Ho. destruct (G o Ho) as [g [-> Hg]]. eauto. Qed.

  Lemma good_app t a b : good t a -> good t b -> good t (a ++ b).
  Proof. intros Ga Gb o Ho. apply in_app_or in Ho as [Ho | Ho]; auto. Qed.

  Lemma good_flat_map t' t os (f : outcome -> list outcome) :
    good t' os -> (forall g, In g (tags_of_ty t') -> good t (f (Some g))) -> good t (flat_map f os).
  Proof.
    intros G F o Ho. apply in_flat_map in Ho as [o' [Ho' Ho]]. destruct (G o' Ho') as [g [-> Hg]]. exact (F g Hg o Ho).
  Qed.

  Lemma op_sound tl tr m t :
    In tl core_tys -> In tr core_tys -> In m binops -> meth_ok tl m [tr] t ->
    In t core_tys /\
    forall a b, In a (tags_of_ty tl) -> In b (tags_of_ty tr) ->
                good t (match py_binop m a b with Some rs => map Some rs | None => [None] end).
  Proof.
    intros Hl Hr Hm HM.
    destruct (call_complete cx sigs (tl, false) m [(tr, false)] t HM) as [obls [EC DC]].
    destruct tables_ok_inv as [H _]. unfold ops_sound_b in H. rewrite forallb_forall in H. specialize (H tl Hl).
    rewrite forallb_forall in H. specialize (H tr Hr). rewrite forallb_forall in H. specialize (H m Hm).
    rewrite EC, DC in H. apply andb_prop in H as [Hc Ht]. split; [apply in_core_In; exact Hc|].
    intros a b Ha Hb. rewrite forallb_forall in Ht. specialize (Ht a Ha). rewrite forallb_forall in Ht. specialize (Ht b Hb).
    destruct (py_binop m a b) as [rs|]; [|discriminate].
    intros o Ho. apply in_map_iff in Ho as [g [<- Hg]]. eauto using subset_In.
  Qed.

  Lemma bool_recv t rt : In t core_tys -> meth_ok t "__bool__" [] rt -> forall g, In g (tags_of_ty t) -> In g (tags_of_ty tBool).
  Proof.
    intros Ht HM g Hg. destruct (call_complete cx sigs (t, false) "__bool__" [] rt HM) as [obls [EC DC]].
    destruct tables_ok_inv as [_ [_ [_ H]]]. unfold bool_recv_ok_b in H. rewrite forallb_forall in H. specialize (H t Ht).
    rewrite EC, DC in H. exact (subset_In _ _ g H Hg).
  Qed.

  Lemma join_sound a b t : In a core_tys -> In b core_tys -> join_ty cx a b = Some t ->
    In t core_tys /\ (forall g, In g (tags_of_ty a) -> In g (tags_of_ty t)) /\ (forall g, In g (tags_of_ty b) -> In g (tags_of_ty t)).
  Proof.
    intros Ha Hb EJ. destruct tables_ok_inv as [_ [H _]]. unfold join_ok_b in H. rewrite forallb_forall in H. specialize (H a Ha).
    rewrite forallb_forall in H. specialize (H b Hb). rewrite EJ in H.
    apply andb_prop in H as [H H2]. apply andb_prop in H as [Hc H1].
    split; [apply in_core_In; exact Hc|]. split; intros g Hg; [exact (subset_In _ _ g H1 Hg) | exact (subset_In _ _ g H2 Hg)].
  Qed.

  Lemma quest_sound tx td t : In tx core_tys -> In td core_tys -> join_ty cx (strip_null tx) td = Some t ->
    In t core_tys /\ (forall g, In g (tags_of_ty tx) -> g = GNone \/ In g (tags_of_ty t)) /\
    (forall g, In g (tags_of_ty td) -> In g (tags_of_ty t)).
  Proof.
    intros Ha Hb EJ. destruct tables_ok_inv as [_ [_ [H _]]]. unfold quest_ok_b in H. rewrite forallb_forall in H. specialize (H tx Ha).
    rewrite forallb_forall in H. specialize (H td Hb). rewrite EJ in H.
    apply andb_prop in H as [H H2]. apply andb_prop in H as [Hc H1].
    split; [apply in_core_In; exact Hc|]. split.
    - intros g Hg. rewrite forallb_forall in H1. specialize (H1 g Hg). apply orb_prop in H1 as [E | E].
      + left. apply tag_eqb_eq. exact E.
      + right. apply mem_In. exact E.
    - intros g Hg. exact (subset_In _ _ g H2 Hg).
  Qed.

  Lemma binops_In m : existsb (String.eqb m) binops = true -> In m binops.
  Proof. intros H. apply existsb_exists in H as [x [Hx E]]. apply String.eqb_eq in E. subst. exact Hx. Qed.

  Theorem tag_sound : forall e d rho t,
    core_e e = true -> core_denv d -> env_tags rho d -> has_type d e t ->
    In t core_tys /\ good t (aeval rho e).
  Proof.
    intros e d rho t HC HD HE. revert t HC.
    induction e using expr_ind'; intros t0 HC HT; cbn [core_e] in HC; try discriminate;
      inversion HT; subst; clear HT; cbn [aeval].
    1-5: split; [cbn; tauto | apply good_single; cbn; tauto].
    - (* Var *) split; [exact (HD x v ltac:(eassumption))|]. destruct (HE x v ltac:(eassumption)) as [g [-> Hg]].
      exact (good_single _ g Hg).
    - (* Op *) apply andb_prop in HC as [HC Hr]. apply andb_prop in HC as [Hm Hl].
      destruct (IHe1 tl Hl ltac:(eassumption)) as [Cl Gl]. destruct (IHe2 tr Hr ltac:(eassumption)) as [Cr Gr].
      destruct (op_sound tl tr m t0 Cl Cr (binops_In m Hm) ltac:(eassumption)) as [Ct Hop]. split; [exact Ct|].
      apply (good_flat_map tl); [exact Gl|]. intros a Ha. apply (good_flat_map tr); [exact Gr|]. intros b. exact (Hop a b Ha).
    - (* Not *) destruct (IHe ta HC ltac:(eassumption)) as [Ca Ga]. split; [cbn; tauto|].
      intros o Ho. apply in_map_iff in Ho as [oa [<- Hoa]]. destruct (Ga oa Hoa) as [g [-> _]].
      exists GBool. split; [reflexivity|cbn; tauto].
    - (* BoolOp *) apply andb_prop in HC as [Hl Hr].
      destruct (IHe1 tl Hl ltac:(eassumption)) as [Cl Gl]. destruct (IHe2 tr Hr ltac:(eassumption)) as [Cr Gr].
      split; [cbn; tauto|]. apply good_app; [apply (good_mono tl) | apply (good_mono tr)]; eauto using bool_recv.
    - (* Quest *) apply andb_prop in HC as [Hx Hd].
      destruct (IHe1 tx Hx ltac:(eassumption)) as [Cx Gx]. destruct (IHe2 td Hd ltac:(eassumption)) as [Cd Gd].
      destruct (quest_sound tx td t0 Cx Cd ltac:(eassumption)) as [Ct [Qx Qd]]. split; [exact Ct|].
      pose proof (good_mono td t0 _ Qd Gd) as Gd'. apply (good_flat_map tx); [exact Gx|]. intros g Hg.
      (* [x ? d] evaluates to [d] exactly when [x] is None; every other tag of [x] is the outcome *)
      destruct (Qx g Hg) as [-> | Hin]; [exact Gd'|]. destruct g; [exact (good_single t0 _ Hin).. | exact Gd'].
    - (* If *) apply andb_prop in HC as [HC Hf]. apply andb_prop in HC as [Hc Ht].
      destruct (IHe1 tc Hc ltac:(eassumption)) as [Cc Gc]. destruct (IHe2 t1 Ht ltac:(eassumption)) as [C1 G1].
      destruct (IHe3 t2 Hf ltac:(eassumption)) as [C2 G2].
      destruct (join_sound t1 t2 t0 C1 C2 ltac:(eassumption)) as [Ct [J1 J2]]. split; [exact Ct|].
      apply (good_flat_map tc); [exact Gc|]. intros g _.
      apply good_app; [apply (good_mono t1) | apply (good_mono t2)]; assumption.
    - (* Fmt *) split; [cbn; tauto|].
      assert (HW : existsb (fun a => existsb is_wrong (aeval rho a)) es = false).
      { apply not_true_is_false. intros HX. apply existsb_exists in HX as [a [Ha HX]].
        apply existsb_exists in HX as [o [Ho HX]].
        rewrite Forall_forall in H. rewrite forallb_forall in HC.
        destruct (strs_ok_in cx sigs funs fields d es a ltac:(eassumption) Ha) as [ta HTa].
        destruct (H a Ha ta (HC a Ha) HTa) as [_ Ga].
        destruct (Ga o Ho) as [g [-> _]]. discriminate. }
      rewrite HW. apply good_single. cbn. tauto.
  Qed.

  Corollary no_wrong e d rho t :
    core_e e = true -> core_denv d -> env_tags rho d -> has_type d e t -> ~ In None (aeval rho e).
  Proof.
    intros HC HD HE HT HI. destruct (tag_sound e d rho t HC HD HE HT) as [_ G]. destruct (G None HI) as [g [E _]]. discriminate.
  Qed.
End Sound.


Definition sound_rows : list msig := filter (fun r => negb (known_row r)) stub_sigs.

Theorem tables_ok_outside_known : tables_ok generated sound_rows = true.
Proof. vm_compute. reflexivity. Qed.

(** D9: as long as the row Str.__add__ admits an Int operand, ["a" + 1] is typable and goes wrong *)
Definition d9_expr : expr := EOp "__add__" (EStr "a") (EInt 1%Z).
Definition d9_typable : bool :=
  match gen_e generated stub_sigs [] [] [] d9_expr with
  | Some (t, _, l) => ty_eqb t tStr && forallb (discharge generated noq) l
  | None => false
  end.

Theorem typable_goes_wrong :
  d9_typable = true ->
  exists t, has_type generated stub_sigs [] [] [] d9_expr t /\ core_e d9_expr = true /\ In None (aeval [] d9_expr).
Proof.
  unfold d9_typable. intros H.
  destruct (gen_e generated stub_sigs [] [] [] d9_expr) as [[[t lo] l]|] eqn:E; [|discriminate].
  apply andb_prop in H as [_ D]. exists t. split; [|split; [reflexivity|cbn; tauto]].
  apply (gen_e_iff generated stub_sigs [] [] [] d9_expr t). exists lo, l. split; assumption.
Qed.

(** the hypotheses of the soundness theorem are satisfiable by a non-trivial case *)
Example partial_example :
  let d := [("x", {| d_ty := opt tInt; d_mut := false |}); ("y", {| d_ty := tFloat; d_mut := false |})] in
  let e := EIf (EOp "__lt__" (EVar "y") (EInt 2%Z)) (EOp "__mul__" (EQuest (EVar "x") (EInt 3%Z)) (EInt 2%Z)) (EInt 0%Z) in
  core_e e = true /\ core_denv d /\ env_tags [("x", GNone); ("y", GInt)] d /\
  (exists t, has_type generated sound_rows [] [] d e t) /\ aeval [("x", GNone); ("y", GInt)] e = [Some GInt; Some GInt].
Proof.
  cbv zeta. split; [reflexivity|]. split.
  - intros x v H. cbn [dlookup] in H. destruct (String.eqb "x" x); cbn [dlookup] in H; [injection H as <-; vm_compute; tauto|].
    destruct (String.eqb "y" x); cbn [dlookup] in H; [injection H as <-; vm_compute; tauto|discriminate].
  - split.
    + intros x v H. cbn [dlookup] in H. destruct (String.eqb "x" x) eqn:E1; cbn [dlookup] in H.
      * injection H as <-. exists GNone. split; [cbn [assoc]; rewrite E1; reflexivity|vm_compute; tauto].
      * destruct (String.eqb "y" x) eqn:E2; cbn [dlookup] in H; [|discriminate]. injection H as <-. exists GInt.
        split; [cbn [assoc]; rewrite E1, E2; reflexivity|vm_compute; tauto].
    + split; [|vm_compute; reflexivity].
      exists tInt.
      apply (TypingProps.gen_e_iff generated sound_rows [] []
               [("x", {| v_ty := opt tInt; v_loose := false; v_mut := false |}); ("y", {| v_ty := tFloat; v_loose := false; v_mut := false |})]).
      eexists _, _. split; [vm_compute; reflexivity | vm_compute; reflexivity].
Qed.
