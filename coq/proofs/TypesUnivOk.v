(** * The generated class table satisfies the side conditions of TypesProps, and the laws of C20 hold on the finite
      universe of model/TypesUniv.v: by evaluation, except where a theorem of TypesProps covers the plain names. *)
From Coq Require Import List String Bool Arith.
From MambaModel Require Import gen.TypesConf model.Types gen.Stubs model.TypesUniv proofs.TypesProps.
Import ListNotations.
Local Open Scope string_scope.
Local Open Scope list_scope.

Lemma consts_ok : (src_TUPLE, src_COLLECTION, src_ANY, src_NONE) = (TUPLE, COLLECTION, ANY, NONE).
Proof. reflexivity. Qed.

Lemma generated_wf : stubs_wf generated = true.
Proof. vm_compute. reflexivity. Qed.

Lemma demo_wf : stubs_wf demo = true.
Proof. vm_compute. reflexivity. Qed.

Lemma wf_ok cx : stubs_wf cx = true -> ctx_ok cx = true /\ acyclic cx.
Proof.
  unfold stubs_wf. intros H. apply andb_true_iff in H. destruct H as [H Ha].
  apply andb_true_iff in H. destruct H as [Hc _]. split; [exact Hc | apply ctx_acyclic; assumption].
Qed.

Lemma demo_ok : ctx_ok demo = true /\ acyclic demo.
Proof. apply wf_ok. exact demo_wf. Qed.

Lemma univ_size : (List.length univ, List.length univ_rel, List.length univ_small) = (143, 139, 29).
Proof. vm_compute. reflexivity. Qed.

Definition table (cx : ctx) (l : list name) : list (list (res bool)) := map (fun A => map (super cx A) l) l.
Definition ndv (r : res bool) : bool := match r with Div => false | _ => true end.
Definition nd (cx : ctx) (rows cols : list name) : bool :=
  forallb (fun A => forallb (fun B => ndv (super cx A B)) cols) rows.

Lemma forallb2 {X Y} (p : X -> Y -> bool) l1 l2 :
  forallb (fun a => forallb (p a) l2) l1 = true <-> forall a b, In a l1 -> In b l2 -> p a b = true.
Proof.
  rewrite forallb_forall. split; intros H a.
  - intros b Ha. apply (proj1 (forallb_forall _ _) (H a Ha)).
  - intros Ha. apply forallb_forall. intros b. apply H, Ha.
Qed.

Lemma nd_table cx l : forallb (forallb ndv) (table cx l) = true -> no_divergence cx l = true.
Proof.
  intros H. rewrite forallb_forall in H. apply forallb2. intros A B HA HB.
  specialize (H _ (in_map _ _ A HA)). rewrite forallb_forall in H. exact (H _ (in_map (super cx A) l B HB)).
Qed.

Lemma nd_app cx l1 l2 :
  no_divergence cx l1 = true -> nd cx l1 l2 = true -> nd cx l2 (l1 ++ l2) = true -> no_divergence cx (l1 ++ l2) = true.
Proof.
  unfold no_divergence, nd. rewrite !forallb2. intros H11 H12 H2 A B HA HB.
  apply in_app_or in HA as [HA | HA]; [apply in_app_or in HB as [HB | HB]; [exact (H11 A B HA HB) | exact (H12 A B HA HB)]|].
  exact (H2 A B HA HB).
Qed.

Lemma matrix_table cx l : matrix cx l = map (map yes) (table cx l).
Proof. unfold matrix, table. rewrite map_map. apply map_ext. intros A. rewrite map_map. reflexivity. Qed.

Lemma subrow_impl rb ra : subrow rb ra = true -> forall p, In p (combine rb ra) -> implb (fst p) (snd p) = true.
Proof.
  revert ra. induction rb as [|b rb IH]; intros [|a ra] H p Hp; try discriminate; [destruct Hp|].
  cbn in H. apply andb_prop in H as [H1 H2]. destruct Hp as [<- | Hp]; [exact H1 | exact (IH ra H2 p Hp)].
Qed.

Lemma trans_table_outside cx l : trans_table (matrix cx l) = true -> trans_outside cx l = true.
Proof.
  unfold trans_table, trans_outside. cbv zeta. generalize (matrix cx l). intros m H.
  rewrite forallb_forall in H. apply forallb_forall. intros [A ra] Ha. apply in_combine_r in Ha.
  specialize (H ra Ha). rewrite forallb_forall in H. apply forallb_forall. intros [B [b rb]] Hb. cbn [fst snd].
  apply in_combine_r in Hb. specialize (H (b, rb) Hb). cbn [fst snd] in H. destruct b; [|reflexivity]. cbn [implb] in *.
  apply forallb_forall. intros [C pc] Hc. apply in_combine_r in Hc. cbn [fst snd].
  rewrite (subrow_impl rb ra H pc Hc). reflexivity.
Qed.

(** Absence of divergence and transitivity are both read off one table [T] of the relation.  The transitivity
    conjunct is vacuous when [tuple_zip_truncates] is set; gen/TypesConf.v reads that flag from has_parent on
    every run. *)
Definition rel_checks (cx : ctx) (l : list name) : bool :=
  let T := table cx l in forallb (forallb ndv) T && (tuple_zip_truncates || trans_table (map (map yes) T)).

Lemma rel_checks_ok cx l : rel_checks cx l = true ->
  no_divergence cx l = true /\ (tuple_zip_truncates = false -> trans_table (matrix cx l) = true).
Proof.
  unfold rel_checks. cbv zeta. intros C. apply andb_prop in C as [C1 C2]. split; [exact (nd_table _ _ C1)|].
  intros H. rewrite H in C2. rewrite matrix_table. exact C2.
Qed.

Lemma univ_rel_checks : rel_checks demo univ_rel = true.
Proof. vm_compute. reflexivity. Qed.

Lemma univ_no_divergence : no_divergence demo univ = true.
Proof.
  apply (nd_app demo univ_rel u_fun (proj1 (rel_checks_ok _ _ univ_rel_checks))); vm_compute; reflexivity.
Qed.

(** Where has_parent zips tuple arguments and truncates, tuples of different length are mutually assignable, which
    breaks transitivity (repaired in /repo by eb238d6, listed under "fixed" in known_findings.json; the class
    [arity_clash] of model/TypesUniv.v).  With tuples compared only at equal length, transitivity holds for every
    triple. *)
Lemma univ_trans_full : tuple_zip_truncates = false -> trans_table (matrix demo univ_rel) = true.
Proof. exact (proj2 (rel_checks_ok _ _ univ_rel_checks)). Qed.

Lemma univ_trans : trans_outside demo univ_rel = true.
Proof.
  (* first branch: [tuple_zip_truncates = false], the table is transitive outright; second: [true], by evaluation *)
  first [ apply trans_table_outside, univ_trans_full; reflexivity | vm_compute; reflexivity ].
Qed.

Lemma univ_refl_exact : refl_exact demo univ = true.
Proof. vm_compute. reflexivity. Qed.

Lemma refl_exact_check cx l : refl_exact cx l = true -> refl_check cx l = true.
Proof.
  unfold refl_exact, refl_check. rewrite !forallb_forall. intros H A HA. specialize (H A HA).
  destruct (yes (super cx A A)), (d22 A); [reflexivity.. | discriminate].
Qed.

Lemma univ_refl : refl_check demo univ = true.
Proof. exact (refl_exact_check _ _ univ_refl_exact). Qed.

Lemma univ_any_top : any_top_check demo univ_rel = true.
Proof. vm_compute. reflexivity. Qed.

Definition pne (cx : ctx) (A : name) : bool := match A with [] => false | _ => plainN cx A end.

Lemma pne_ok cx A : pne cx A = true -> plainN cx A = true /\ A <> [].
Proof. destruct A; [discriminate|]. split; [assumption | discriminate]. Qed.

Lemma known_first x p q : (if p || q then true else x) = x || p || q.
Proof. destruct x, p, q; reflexivity. Qed.

(** pairs of plain names are covered by [TypesProps.union_upper]; only the others are evaluated, and the relation
    only outside the known classes *)
Definition union_upper_generic (cx : ctx) (l : list name) : bool :=
  forallb (fun A => let pa := pne cx A in forallb (fun B =>
    if pa && pne cx B then true
    else let U := union_members A B in
         (if d22 A || d31 U A then true else yes (super cx U A)) &&
         (if d22 B || d31 U B then true else yes (super cx U B))) l) l.

Lemma union_upper_generic_ok cx l :
  ctx_ok cx = true -> acyclic cx -> union_upper_generic cx l = true -> union_upper_check cx l = true.
Proof.
  unfold union_upper_generic, union_upper_check. cbv zeta. rewrite !forallb2. intros Hok Hac H A B HA HB. specialize (H A B HA HB).
  cbv beta in *. destruct (pne cx A && pne cx B) eqn:E; [|rewrite !known_first in H; exact H].
  apply andb_prop in E as [PA PB]. apply pne_ok in PA as [PA NA], PB as [PB NB].
  destruct (union_upper cx Hok Hac A B PA PB NA NB) as [-> ->]. reflexivity.
Qed.

Lemma univ_union_upper : union_upper_check demo univ_rel = true.
Proof. apply (union_upper_generic_ok demo univ_rel (proj1 demo_ok) (proj2 demo_ok)). vm_compute. reflexivity. Qed.

Fixpoint tri {X} (p : X -> X -> bool) (l : list X) : bool :=
  match l with [] => true | a :: r => forallb (p a) l && tri p r end.

Lemma tri_square {X} (p : X -> X -> bool) : (forall a b, p a b = p b a) ->
  forall l, tri p l = true -> forallb (fun a => forallb (p a) l) l = true.
Proof.
  intros Hsym l H. apply forallb2.
  induction l as [|x r IH]; [intros a b []|]. cbn [tri] in H. apply andb_prop in H as [Hx Hr].
  rewrite forallb_forall in Hx. intros a b [<- | Ha] Hb; [exact (Hx b Hb)|].
  destruct Hb as [<- | Hb]; [rewrite Hsym; apply Hx; right; exact Ha | exact (IH Hr a b Ha Hb)].
Qed.

Lemma univ_union_comm : union_comm_check univ = true.
Proof.
  apply (tri_square (fun A B => name_eqb (union_members A B) (union_members B A))).
  - intros A B. apply name_eqb_sym.
  - vm_compute. reflexivity.
Qed.

Lemma univ_union_idem : union_idem_check univ = true.
Proof. vm_compute. reflexivity. Qed.

Lemma in_combine_map {A B} (g : A -> B) l a : In a l -> In (a, g a) (combine l (map g l)).
Proof. induction l as [|x l IH]; [intros []|]. intros [<- | H]; [left; reflexivity | right; exact (IH H)]. Qed.

Lemma combine_map2 {A B C} (f : A -> B) (g : A -> C) l : combine (map f l) (map g l) = map (fun x => (f x, g x)) l.
Proof. induction l as [|x l IH]; [reflexivity|]. cbn. rewrite IH. reflexivity. Qed.

(** [union_assoc_check] with the unions [A u B] and [B u C] taken from one table [rows] ([union_assoc_rows_ok]) *)
Definition union_assoc_rows (l : list name) : bool :=
  let rows := map (fun A => map (union_members A) l) l in
  forallb (fun pa => forallb (fun pb => forallb (fun pc =>
    if existsb is_null (fst pa ++ fst pb ++ fst pc) then true
    else name_eqb (union_members (fst (snd pb)) (fst pc)) (union_members (fst pa) (snd pc)))
    (combine l (snd (snd pb)))) (combine l (combine (snd pa) rows))) (combine l rows).

Lemma union_assoc_rows_ok l : union_assoc_rows l = true -> union_assoc_check l = true.
Proof.
  unfold union_assoc_rows, union_assoc_check. cbv zeta. intros H. rewrite forallb_forall in H.
  apply forallb2. intros A B HA HB. apply forallb_forall. intros C HC.
  specialize (H _ (in_combine_map _ l A HA)). cbn [fst snd] in H. rewrite combine_map2, forallb_forall in H.
  specialize (H _ (in_combine_map _ l B HB)). cbn [fst snd] in H. rewrite forallb_forall in H.
  specialize (H _ (in_combine_map _ l C HC)). cbn [fst snd] in H.
  destruct (existsb is_null (A ++ B ++ C)); [apply orb_true_r | rewrite orb_false_r; exact H].
Qed.

Lemma univ_union_assoc : union_assoc_check univ_small = true.
Proof. apply union_assoc_rows_ok. vm_compute. reflexivity. Qed.

(** [union_member_check] with the answers [U >= A] taken from the column [cols] of [A].
    Triples of plain names are covered by [TypesProps.union_member_fwd] and [union_member_bwd_outside_known]. *)
Definition union_member_cols (cx : ctx) (l : list name) : bool :=
  let pl := map (pne cx) l in
  let cols := map (fun A => (pne cx A, map (fun U => yes (super cx U A)) l)) l in
  forallb (fun pa => forallb (fun pb =>
    let AB := union_members (fst pa) (fst pb) in
    let pab := fst (snd pa) && fst (snd pb) in
    forallb (fun pu =>
      if pab && fst (snd pu) then true else
      let ua := fst (snd (snd pu)) in let ub := snd (snd (snd pu)) in let uab := yes (super cx (fst pu) AB) in
      (implb uab (ua && ub) || d22 (fst pa) || d22 (fst pb)) && (implb (ua && ub) uab || null_mix (fst pa) (fst pb)))
      (combine l (combine pl (combine (snd (snd pa)) (snd (snd pb)))))) (combine l cols)) (combine l cols).

Lemma yes_ok r : yes r = true -> r = Ok true.
Proof. destruct r as [[|]| |]; [reflexivity | discriminate..]. Qed.

Lemma union_member_cols_ok cx l :
  ctx_ok cx = true -> acyclic cx -> union_member_cols cx l = true -> union_member_check cx l = true.
Proof.
  unfold union_member_cols. cbv zeta. intros Hok Hac H. rewrite forallb_forall in H.
  apply forallb2. intros A B HA HB. cbv zeta. apply forallb_forall. intros U HU.
  specialize (H _ (in_combine_map _ l A HA)). rewrite forallb_forall in H.
  specialize (H _ (in_combine_map _ l B HB)). cbn [fst snd] in H. rewrite !combine_map2, forallb_forall in H.
  specialize (H _ (in_combine_map _ l U HU)). cbn [fst snd] in H.
  destruct (pne cx A && pne cx B && pne cx U) eqn:P; [clear H | exact H].
  apply andb_prop in P as [P PU]. apply andb_prop in P as [PA PB].
  apply pne_ok in PA as [PA NA], PB as [PB NB], PU as [PU _].
  pose proof (union_member_fwd cx Hok Hac U A B PU PA PB NA NB) as Hf.
  pose proof (union_member_bwd_outside_known cx Hok Hac U A B PU PA PB) as Hb. change (mixes A B) with (null_mix A B) in Hb.
  destruct (yes (super cx U (union_members A B))) eqn:EAB.
  - destruct (Hf (yes_ok _ EAB)) as [-> ->]. reflexivity.
  - destruct (null_mix A B); [apply orb_true_r|].
    destruct (yes (super cx U A)) eqn:EA; [|reflexivity]. destruct (yes (super cx U B)) eqn:EB; [|reflexivity].
    rewrite (Hb (or_introl eq_refl) (yes_ok _ EA) (yes_ok _ EB)) in EAB. discriminate.
Qed.

Lemma univ_union_member : union_member_check demo univ_small = true.
Proof. apply (union_member_cols_ok demo univ_small (proj1 demo_ok) (proj2 demo_ok)). vm_compute. reflexivity. Qed.

Definition tInt := c "Int". Definition tStr := c "Str". Definition tNone := c "None". Definition tAny := c "Any".

(** D17: forming unions is not associative *)
Lemma union_assoc_refuted :
  exists A B C, plainN generated A = true /\ plainN generated B = true /\ plainN generated C = true /\
    union_members (union_members A B) C = [q tInt; tStr] /\
    union_members A (union_members B C) = [tInt; q tStr] /\
    super generated (union_members (union_members A B) C) (union_members A (union_members B C)) = Ok false /\
    super generated (union_members A (union_members B C)) (union_members (union_members A B) C) = Ok false.
Proof. exists [tInt], [tNone], [tStr]. vm_compute. repeat split; reflexivity. Qed.

(** D22: a generic instantiation with a nullable argument is not assignable to itself *)
Lemma super_refl_refuted :
  exists A, super generated A A = Ok false.
Proof. exists [g1 "List" (q tInt)]. vm_compute. reflexivity. Qed.

(** D23: Any accepts Int and accepts None but not their union Int? *)
Lemma union_member_refuted :
  exists U A B, plainN generated U = true /\ plainN generated A = true /\ plainN generated B = true /\
    super generated U A = Ok true /\ super generated U B = Ok true /\
    super generated U (union_members A B) = Ok false.
Proof. exists [tAny], [tInt], [tNone]. vm_compute. repeat split; reflexivity. Qed.

(** D23 again, for a name that spreads "accepts None" and "accepts Int" over different members *)
Lemma union_member_refuted_stored :
  super generated [tInt; tNone] [tInt] = Ok true /\ super generated [tInt; tNone] [tNone] = Ok true /\
  super generated [tInt; tNone] (union_members [tInt] [tNone]) = Ok false.
Proof. vm_compute. repeat split; reflexivity. Qed.

(** a stored set {Int, None} is changed by the union with itself, and does not accept the result *)
Lemma union_idem_refuted :
  exists A, plainN generated A = true /\ union_members A A = [q tInt] /\
            super generated A (union_members A A) = Ok false.
Proof. exists [tInt; tNone]. vm_compute. repeat split; reflexivity. Qed.

(** C06: the exception in [C06_nullable_rule] (clause [t <> ANY]) *)
Lemma any_accepts_none : super generated [tAny] [tNone] = Ok true.
Proof. vm_compute. reflexivity. Qed.

Lemma super_trans_refuted :
  tuple_zip_truncates = true ->
  exists A B C, super generated A B = Ok true /\ super generated B C = Ok true /\ super generated A C = Ok false.
Proof.
  intros H. vm_compute in H.
  (* first branch: the generated flag is [false]; second: [true], and the witness evaluates *)
  first [ discriminate H
        | exists [tup [tInt; tStr]], [tup [tInt]], [tup [tInt; tInt]]; vm_compute; repeat split; reflexivity ].
Qed.

(** D38 ([d31] in model/TypesUniv.v): Collection[Str] against a tuple whose first element is not a Str is an error,
    also when another member of the accepting name covers the tuple: the union does not accept its own member *)
Lemma union_upper_refuted :
  exists A B, super generated (union_members A B) B = Err /\ super generated B B = Ok true.
Proof. exists [g1 "Collection" tStr], [tup [tInt; tStr]]. vm_compute. repeat split; reflexivity. Qed.

(** outside the plain fragment: {None} u {None?} is the empty name *)
Lemma union_none_nullable_none : union_members [tNone] [q tNone] = [].
Proof. reflexivity. Qed.

(** D8 at the level of [super] ([TypesProps.cyclic_diverges]: the same for [lookup], for every fuel) *)
Lemma cyclic_super_diverges :
  super (generated ++ cyclic_table) [c "A"] [c "A"] = Div.
Proof. vm_compute. reflexivity. Qed.
