(** Paths and the association-list file system of [model/Project.v].  What the write loop leaves at its
    targets, above them and elsewhere is stated through [fs_get], path by path ([write_all_spec]); that writes away
    from the source leave the glob's matches alone is stated on the list itself ([write_all_pick]). *)
From Coq Require Import List String Ascii Bool Arith Lia.
Import ListNotations.
From MambaModel Require Import model.Project.
Local Open Scope string_scope.
Local Open Scope list_scope.

Lemma path_eqb_true : forall p q, path_eqb p q = true <-> p = q.
Proof. intros p q. unfold path_eqb. destruct (path_eq_dec p q); split; congruence. Qed.

Lemma path_eqb_refl : forall p, path_eqb p p = true.
Proof. intro p. apply path_eqb_true. reflexivity. Qed.

Lemma path_eqb_false : forall p q, path_eqb p q = false <-> p <> q.
Proof. intros p q. unfold path_eqb. destruct (path_eq_dec p q); split; congruence. Qed.

Definition is_prefix (q p : path) : Prop := exists t, p = q ++ t.
Definition strict_prefix (q p : path) : Prop := exists c t, p = q ++ c :: t.

Lemma strict_is_prefix : forall q p, strict_prefix q p -> is_prefix q p.
Proof. intros q p (c & t & ->). exists (c :: t). reflexivity. Qed.

Lemma is_prefix_refl : forall p, is_prefix p p.
Proof. intro p. exists []. now rewrite app_nil_r. Qed.

Lemma is_prefix_trans : forall a b c, is_prefix a b -> is_prefix b c -> is_prefix a c.
Proof. intros a b c [t ->] [u ->]. exists (t ++ u). now rewrite app_assoc. Qed.

Lemma strip_spec : forall pre p r, strip pre p = Some r <-> p = pre ++ r.
Proof.
  induction pre as [|a pre IH]; intros p r; cbn [strip app].
  - split; [intros [= ->]; reflexivity | intros ->; reflexivity].
  - destruct p as [|b p]; [split; discriminate|].
    destruct (String.eqb_spec a b) as [<-|N].
    + rewrite IH. split; [intros ->; reflexivity | intros [= ->]; reflexivity].
    + split; [discriminate | intros [= <- _]; now destruct N].
Qed.

Lemma strip_none : forall pre p, strip pre p = None <-> ~ is_prefix pre p.
Proof.
  intros pre p. split.
  - intros H [t Ht]. apply strip_spec in Ht. congruence.
  - intro H. destruct (strip pre p) as [r|] eqn:E; [|reflexivity]. apply strip_spec in E. destruct H. now exists r.
Qed.

Lemma prefixes_comparable : forall a b p, is_prefix a p -> is_prefix b p -> is_prefix a b \/ is_prefix b a.
Proof.
  intros a b p [t ->] [u H]. apply app_eq_app in H. destruct H as (l & [[-> _]|[-> _]]); [right | left]; now exists l.
Qed.

Lemma under_spec : forall src p r, under src p = Some r <-> p = src ++ r /\ r <> [].
Proof.
  intros src p r. rewrite <- strip_spec. unfold under. destruct (strip src p) as [[|c t]|]; split; try discriminate.
  - intros [[= <-] N]. now destruct N.
  - intros [= <-]. split; [reflexivity | discriminate].
  - now intros [H _].
  - now intros [H _].
Qed.

Lemma under_none_of : forall src p, ~ is_prefix src p -> under src p = None.
Proof. intros src p H. unfold under. now rewrite (proj2 (strip_none src p) H). Qed.

Lemma soa_app : forall a b, string_of_list_ascii (a ++ b) = (string_of_list_ascii a ++ string_of_list_ascii b)%string.
Proof. induction a as [|c a IH]; intro b; cbn; [reflexivity | now rewrite IH]. Qed.

Lemma aos_app : forall a b, list_ascii_of_string (a ++ b)%string = list_ascii_of_string a ++ list_ascii_of_string b.
Proof. induction a as [|c a IH]; intro b; cbn; [reflexivity | now rewrite IH]. Qed.

Lemma starts_prefix : forall pre l, starts pre l = true -> exists t, l = pre ++ t.
Proof.
  induction pre as [|a pre IH]; intros l H; cbn in H.
  - now exists l.
  - destruct l as [|b l]; [discriminate|]. apply andb_true_iff in H. destruct H as [H1 H2].
    apply Ascii.eqb_eq in H1. subst b. destruct (IH _ H2) as [t ->]. now exists t.
Qed.

Lemma is_mamba_suffix : forall n, is_mamba n = true -> exists s, n = (s ++ ".mamba")%string.
Proof.
  intros n H. unfold is_mamba in H. apply starts_prefix in H. destruct H as [t Ht].
  exists (string_of_list_ascii (rev t)).
  rewrite <- (string_of_list_ascii_of_string n).
  unfold rev_s in Ht. apply (f_equal (@rev _)) in Ht. rewrite rev_involutive, rev_app_distr in Ht.
  rewrite Ht, soa_app. f_equal.
Qed.

Lemma with_ext_mamba : forall s, s <> "" -> with_extension_py (s ++ ".mamba")%string = (s ++ ".py")%string.
Proof.
  intros s Hs. unfold with_extension_py.
  destruct (String.eqb (s ++ ".mamba")%string "..") eqn:E.
  - apply String.eqb_eq in E. apply (f_equal list_ascii_of_string) in E. rewrite aos_app in E.
    apply (f_equal (@List.length _)) in E. rewrite app_length in E. cbn in E. lia.
  - f_equal. unfold file_stem, rev_s. rewrite aos_app, rev_app_distr. cbn [list_ascii_of_string rev app].
    cbn [split_dot_rev Ascii.eqb dot]. cbn.
    destruct (rev (list_ascii_of_string s)) eqn:R.
    + exfalso. apply Hs. apply (f_equal (@rev _)) in R. rewrite rev_involutive in R. cbn in R.
      rewrite <- (string_of_list_ascii_of_string s), R. reflexivity.
    + rewrite <- R, rev_involutive. apply string_of_list_ascii_of_string.
Qed.

Lemma append_inv_tail : forall a b c, (a ++ c)%string = (b ++ c)%string -> a = b.
Proof.
  intros a b c H. apply (f_equal list_ascii_of_string) in H. rewrite !aos_app in H.
  apply app_inv_tail in H. apply (f_equal string_of_list_ascii) in H.
  now rewrite !string_of_list_ascii_of_string in H.
Qed.

(** [with_extension("py")] is injective on glob matches, EXCEPT for the name ".mamba", whose stem is
    the whole name: ".mamba" and ".mamba.mamba" both become ".mamba.py". *)
Lemma with_ext_name_inj : forall n1 n2,
  is_mamba n1 = true -> is_mamba n2 = true -> n1 <> ".mamba" -> n2 <> ".mamba" ->
  with_extension_py n1 = with_extension_py n2 -> n1 = n2.
Proof.
  intros n1 n2 H1 H2 N1 N2 E.
  apply is_mamba_suffix in H1. apply is_mamba_suffix in H2. destruct H1 as [s1 ->]. destruct H2 as [s2 ->].
  assert (s1 <> "") by (intros ->; now apply N1).
  assert (s2 <> "") by (intros ->; now apply N2).
  rewrite !with_ext_mamba in E by assumption. apply append_inv_tail in E. now subst.
Qed.

Lemma with_ext_path_inj : forall p1 p2,
  p1 <> [] -> p2 <> [] ->
  is_mamba (file_name p1) = true -> is_mamba (file_name p2) = true ->
  file_name p1 <> ".mamba" -> file_name p2 <> ".mamba" ->
  with_ext_path p1 = with_ext_path p2 -> p1 = p2.
Proof.
  intros p1 p2 E1 E2 M1 M2 N1 N2 H. unfold with_ext_path in H.
  destruct p1 as [|a p1]; [congruence|]. destruct p2 as [|b p2]; [congruence|].
  apply app_inj_tail in H. destruct H as [Hr Hl].
  apply with_ext_name_inj in Hl; try assumption.
  rewrite (app_removelast_last "" E1), (app_removelast_last "" E2). unfold file_name in *. now rewrite Hr, Hl.
Qed.

Lemma with_ext_path_nonempty : forall p, p <> [] -> with_ext_path p <> [].
Proof. intros [|a p] H; [congruence|]. unfold with_ext_path. intro E. now apply app_eq_nil in E. Qed.

Lemma with_ext_path_parent : forall p, p <> [] -> parent (with_ext_path p) = parent p.
Proof.
  intros [|a p] H; [congruence|]. unfold with_ext_path, parent. now rewrite removelast_last.
Qed.

Lemma parent_app : forall a r, r <> [] -> parent (a ++ r) = a ++ parent r.
Proof. intros a r H. unfold parent. now apply removelast_app. Qed.

Lemma parent_strict_prefix : forall p, p <> [] -> strict_prefix (parent p) p.
Proof.
  intros p H. exists (last p ""), []. unfold parent. now apply app_removelast_last.
Qed.

Lemma get_set_same : forall fs p n, fs_get (fs_set fs p n) p = Some n.
Proof.
  induction fs as [|[q m] fs IH]; intros p n; cbn [fs_set fs_get].
  - now rewrite path_eqb_refl.
  - destruct (path_eqb q p) eqn:E; cbn [fs_get]; rewrite E; [reflexivity | apply IH].
Qed.

Lemma get_set_other : forall fs p q n, p <> q -> fs_get (fs_set fs p n) q = fs_get fs q.
Proof.
  induction fs as [|[r m] fs IH]; intros p q n H; cbn [fs_set fs_get].
  - apply path_eqb_false in H. now rewrite H.
  - destruct (path_eqb r p) eqn:E; cbn [fs_get].
    + apply path_eqb_true in E. subst r. apply path_eqb_false in H. now rewrite H.
    + destruct (path_eqb r q); [reflexivity | now apply IH].
Qed.

Lemma set_same_id : forall fs p n, fs_get fs p = Some n -> fs_set fs p n = fs.
Proof.
  induction fs as [|[q m] fs IH]; intros p n H; cbn [fs_set fs_get] in *; [discriminate|].
  destruct (path_eqb q p); [congruence | now rewrite IH].
Qed.

Lemma set_keys : forall fs p n,
  map fst (fs_set fs p n) = map fst fs \/ (fs_get fs p = None /\ map fst (fs_set fs p n) = map fst fs ++ [p]).
Proof.
  induction fs as [|[q m] fs IH]; intros p n; cbn [fs_set fs_get map fst].
  - right. split; reflexivity.
  - destruct (path_eqb q p) eqn:E; cbn [map fst].
    + left. reflexivity.
    + destruct (IH p n) as [H|[H1 H2]]; [left; now rewrite H | right; split; [assumption | now rewrite H2]].
Qed.

Lemma get_none_not_in : forall fs p, fs_get fs p = None -> ~ In p (map fst fs).
Proof.
  induction fs as [|[q m] fs IH]; intros p H; cbn in *; [tauto|].
  destruct (path_eqb q p) eqn:E; [discriminate|]. apply path_eqb_false in E. intros [F|F]; [congruence | now apply (IH p)].
Qed.

Lemma set_nodup : forall fs p n, NoDup (map fst fs) -> NoDup (map fst (fs_set fs p n)).
Proof.
  intros fs p n H. destruct (set_keys fs p n) as [E|[E1 E2]]; [now rewrite E|].
  rewrite E2. apply (NoDup_Add (Add_app p (map fst fs) [])). rewrite app_nil_r. split; [assumption | now apply get_none_not_in].
Qed.

Definition apply_ops (fs : FS) (ops : list (path * node)) : FS :=
  fold_left (fun f e => fs_set f (fst e) (snd e)) ops fs.

Lemma apply_ops_nodup : forall ops fs, NoDup (map fst fs) -> NoDup (map fst (apply_ops fs ops)).
Proof.
  induction ops as [|e ops IH]; intros fs H; cbn; [assumption|]. apply IH. now apply set_nodup.
Qed.

Definition glob_pick (src : path) (e : path * node) : list path :=
  match under src (fst e), snd e with
  | Some r, File _ => if is_mamba (file_name r) then [r] else []
  | _, _ => []
  end.

Lemma glob_mamba_eq : forall fs src, glob_mamba fs src = sort_paths (flat_map (glob_pick src) fs).
Proof. reflexivity. Qed.

Lemma last_app_ne : forall (A : Type) (a r : list A) d, r <> [] -> last (a ++ r) d = last r d.
Proof.
  intros A a r d H. destruct (exists_last H) as (r0 & c & ->). now rewrite app_assoc, !last_last.
Qed.

Lemma pick_in : forall sp fs r, In r (flat_map (glob_pick sp) fs) <->
  exists t, In (sp ++ r, File t) fs /\ r <> [] /\ is_mamba (file_name r) = true.
Proof.
  intros sp fs r. rewrite in_flat_map. unfold glob_pick. split.
  - intros ([p n] & I & H). cbn [fst snd] in H. destruct (under sp p) as [r'|] eqn:U; [|destruct H].
    destruct n as [t|]; [|destruct H].
    destruct (is_mamba (file_name r')) eqn:Mm; [|destruct H]. destruct H as [<-|[]].
    apply under_spec in U. destruct U as [-> U]. now exists t.
  - intros (t & I & Nr & Mm). exists (sp ++ r, File t). split; [assumption|]. cbn [fst snd].
    assert (U : under sp (sp ++ r) = Some r) by now apply under_spec. rewrite U, Mm. now left.
Qed.

Lemma pick_nodup : forall sp fs, NoDup (map fst fs) -> NoDup (flat_map (glob_pick sp) fs).
Proof.
  intros sp. induction fs as [|[p n] fs IH]; intros D; cbn [flat_map]; [constructor|].
  cbn [map fst] in D. inversion D; subst. specialize (IH H2).
  unfold glob_pick at 1. cbn [fst snd]. destruct (under sp p) as [r|] eqn:U; [|exact IH].
  destruct n as [t|]; [|exact IH].
  destruct (is_mamba (file_name r)); [|exact IH]. cbn [app]. constructor; [|exact IH].
  intro F. apply pick_in in F. destruct F as (t' & I & _). apply under_spec in U. destruct U as [-> _].
  apply H1. apply in_map_iff. now exists (sp ++ r, File t').
Qed.

Lemma pick_set : forall src fs p n, under src p = None ->
  flat_map (glob_pick src) (fs_set fs p n) = flat_map (glob_pick src) fs.
Proof.
  intros src. induction fs as [|[q m] fs IH]; intros p n H; cbn [fs_set flat_map].
  - unfold glob_pick. cbn [fst]. now rewrite H.
  - destruct (path_eqb q p) eqn:E; cbn [flat_map].
    + apply path_eqb_true in E. subst q. unfold glob_pick at 1 3. cbn [fst]. now rewrite H.
    + now rewrite IH.
Qed.

Lemma get_ops_other : forall ops fs q, Forall (fun e => fst e <> q) ops -> fs_get (apply_ops fs ops) q = fs_get fs q.
Proof.
  induction ops as [|e ops IH]; intros fs q H; cbn; [reflexivity|]. inversion H; subst.
  unfold apply_ops in IH. rewrite IH by assumption. now apply get_set_other.
Qed.

Definition changed_to_dir (fs fs' : FS) (q : path) : Prop := fs_get fs q = None /\ fs_get fs' q = Some Dir.

Lemma mkdirs_get : forall rest fs pre fs', mkdirs_from fs pre rest = Some fs' ->
  forall q, fs_get fs' q = fs_get fs q \/ (changed_to_dir fs fs' q /\ is_prefix q (pre ++ rest)).
Proof.
  induction rest as [|c rest IH]; intros fs pre fs' H q; cbn [mkdirs_from] in H.
  - injection H as <-. now left.
  - assert (Eq : pre ++ c :: rest = (pre ++ [c]) ++ rest) by now rewrite <- app_assoc.
    destruct (fs_get fs (pre ++ [c])) as [[t|]|] eqn:G; [discriminate | |].
    + rewrite Eq. now apply IH.
    + destruct (path_eq_dec (pre ++ [c]) q) as [<-|N].
      * right. destruct (IH _ _ _ H (pre ++ [c])) as [E|[[E _] _]]; rewrite get_set_same in E; [|discriminate].
        repeat split; [assumption.. | rewrite Eq; now exists rest].
      * rewrite Eq. specialize (IH _ _ _ H q). unfold changed_to_dir in *. now rewrite get_set_other in IH by assumption.
Qed.

Fixpoint dirs_exist (fs : FS) (pre rest : path) : Prop :=
  match rest with
  | [] => True
  | c :: r => fs_get fs (pre ++ [c]) = Some Dir /\ dirs_exist fs (pre ++ [c]) r
  end.

Definition keeps_dirs (fs fs' : FS) : Prop := forall q, fs_get fs q = Some Dir -> fs_get fs' q = Some Dir.

Lemma keeps_dirs_refl : forall fs, keeps_dirs fs fs.
Proof. intros fs q H. exact H. Qed.

Lemma keeps_dirs_trans : forall a b c, keeps_dirs a b -> keeps_dirs b c -> keeps_dirs a c.
Proof. intros a b c H1 H2 q H. now apply H2, H1. Qed.

Lemma dirs_exist_mono : forall rest fs fs' pre, keeps_dirs fs fs' -> dirs_exist fs pre rest -> dirs_exist fs' pre rest.
Proof.
  induction rest as [|c rest IH]; intros fs fs' pre K H; cbn in *; [exact I|].
  destruct H as [H1 H2]. split; [now apply K | now apply (IH fs)].
Qed.

Lemma mkdirs_keeps : forall rest fs pre fs', mkdirs_from fs pre rest = Some fs' -> keeps_dirs fs fs'.
Proof.
  intros rest fs pre fs' H q G. destruct (mkdirs_get _ _ _ _ H q) as [E|[[E _] _]]; congruence.
Qed.

Lemma mkdirs_noop : forall rest fs pre, dirs_exist fs pre rest -> mkdirs_from fs pre rest = Some fs.
Proof.
  induction rest as [|c rest IH]; intros fs pre H; cbn in *; [reflexivity|].
  destruct H as [H1 H2]. rewrite H1. now apply IH.
Qed.

Lemma mkdirs_done : forall rest fs pre fs', mkdirs_from fs pre rest = Some fs' -> dirs_exist fs' pre rest.
Proof.
  induction rest as [|c rest IH]; intros fs pre fs' H; cbn [mkdirs_from dirs_exist] in *; [exact I|].
  destruct (fs_get fs (pre ++ [c])) as [[t|]|] eqn:G; [discriminate | |].
  - split; [|now apply (IH fs)]. now apply (mkdirs_keeps _ _ _ _ H).
  - split; [|now apply (IH _ _ _ H)]. apply (mkdirs_keeps _ _ _ _ H). apply get_set_same.
Qed.

Lemma mkdirs_pick : forall src rest fs pre fs', mkdirs_from fs pre rest = Some fs' ->
  (forall q, is_prefix q (pre ++ rest) -> under src q = None) ->
  flat_map (glob_pick src) fs' = flat_map (glob_pick src) fs.
Proof.
  intros src. induction rest as [|c rest IH]; intros fs pre fs' H O; cbn [mkdirs_from] in H.
  - now injection H as <-.
  - assert (Eq : pre ++ c :: rest = (pre ++ [c]) ++ rest) by now rewrite <- app_assoc.
    rewrite Eq in O. destruct (fs_get fs (pre ++ [c])) as [[t|]|] eqn:G; [discriminate | now apply (IH _ _ _ H) |].
    rewrite (IH _ _ _ H O). apply pick_set, O. now exists rest.
Qed.

Lemma prefix_strict : forall q a p, is_prefix q a -> strict_prefix a p -> strict_prefix q p.
Proof.
  intros q a p [t ->] (c & u & ->). destruct t as [|d t].
  - rewrite app_nil_r. now exists c, u.
  - exists d, (t ++ c :: u). now rewrite <- app_assoc.
Qed.

Section Writes.
  Variable msg : Type.
  Notation write_source := (@write_source msg) (only parsing).
  Notation write_all := (@write_all msg) (only parsing).

  Definition targets (l : list (string * path)) : list path := map (fun e => with_ext_path (snd e)) l.

  Lemma write_source_spec : forall fs p t fs', write_source fs p t = Ok fs' ->
    fs_get fs' p = Some (File (crlf t)) /\
    (forall q, p <> q -> fs_get fs' q = fs_get fs q \/ (changed_to_dir fs fs' q /\ strict_prefix q p)) /\
    keeps_dirs fs fs' /\ dirs_exist fs' [] (parent p).
  Proof.
    intros fs p t fs' H. unfold Project.write_source in H.
    destruct p as [|c0 p0]; [discriminate|]. set (p := c0 :: p0) in *.
    assert (Pne : p <> []) by discriminate.
    destruct (mkdirs fs (parent p)) as [fs1|] eqn:M; [|discriminate].
    destruct (is_dir fs1 p) eqn:D; [discriminate|]. injection H as <-.
    unfold mkdirs in M.
    assert (K1 : keeps_dirs fs1 (fs_set fs1 p (File (crlf t)))).
    { intros q G. destruct (path_eq_dec p q) as [<-|N]; [|now rewrite get_set_other].
      unfold is_dir in D. subst p. now rewrite G in D. }
    split; [apply get_set_same|]. split; [|split].
    - intros q N. rewrite get_set_other by assumption.
      destruct (mkdirs_get _ _ _ _ M q) as [E|[[E1 E2] E3]]; [now left|]. right. split.
      + split; [assumption|]. now rewrite get_set_other by assumption.
      + apply (prefix_strict _ (parent p)); [exact E3 | now apply parent_strict_prefix].
    - apply (keeps_dirs_trans _ fs1); [now apply (mkdirs_keeps _ _ _ _ M) | exact K1].
    - apply (dirs_exist_mono _ fs1); [exact K1 | now apply (mkdirs_done _ _ _ _ M)].
  Qed.

  Lemma write_source_pick : forall src fs p t fs', write_source fs p t = Ok fs' ->
    (forall q, is_prefix q p -> under src q = None) ->
    flat_map (glob_pick src) fs' = flat_map (glob_pick src) fs.
  Proof.
    intros src fs p t fs' H O. unfold Project.write_source in H. destruct p as [|c0 p0]; [discriminate|].
    destruct (mkdirs fs (parent (c0 :: p0))) as [fs1|] eqn:M; [|discriminate].
    destruct (is_dir fs1 (c0 :: p0)); [discriminate|]. injection H as <-.
    rewrite pick_set by apply O, is_prefix_refl. apply (mkdirs_pick _ _ _ _ _ M). intros q Q. apply O.
    apply (is_prefix_trans _ _ _ Q), strict_is_prefix, parent_strict_prefix. discriminate.
  Qed.

  Lemma write_source_noop : forall fs p t, p <> [] -> dirs_exist fs [] (parent p) ->
    fs_get fs p = Some (File (crlf t)) -> write_source fs p t = Ok fs.
  Proof.
    intros fs p t N D G. unfold Project.write_source. destruct p as [|c0 p0]; [congruence|].
    unfold mkdirs. rewrite (mkdirs_noop _ _ _ D). unfold is_dir. rewrite G. now rewrite set_same_id.
  Qed.

  Lemma write_source_err : forall fs p t e, write_source fs p t = Err e -> is_write_err e = true.
  Proof.
    intros fs p t e H. unfold Project.write_source in H. destruct p; [injection H as <-; reflexivity|].
    destruct (mkdirs fs _); [|injection H as <-; reflexivity].
    destruct (is_dir f _); [injection H as <-; reflexivity | discriminate].
  Qed.

  Lemma write_all_err : forall l fs fs' e, write_all fs l = (fs', Some e) -> is_write_err e = true.
  Proof.
    induction l as [|[py out] l IH]; intros fs fs' e H; cbn [Project.write_all] in H; [discriminate|].
    destruct (write_source fs (with_ext_path out) py) as [fs1|e1] eqn:W.
    - now apply (IH _ _ _ H).
    - injection H as _ <-. now apply (write_source_err _ _ _ _ W).
  Qed.

  Lemma write_all_spec : forall l fs fs', write_all fs l = (fs', None) ->
    keeps_dirs fs fs' /\
    (forall q, ~ In q (targets l) ->
       fs_get fs' q = fs_get fs q \/
       (changed_to_dir fs fs' q /\ exists o, In o (targets l) /\ strict_prefix q o)) /\
    (forall q, In q (targets l) -> exists t, fs_get fs' q = Some (File t)) /\
    (NoDup (targets l) -> forall py out, In (py, out) l -> fs_get fs' (with_ext_path out) = Some (File (crlf py))) /\
    (forall py out, In (py, out) l -> dirs_exist fs' [] (parent (with_ext_path out))).
  Proof.
    induction l as [|[py0 out0] l IH]; intros fs fs' H; cbn [Project.write_all] in H.
    { injection H as <-. split; [apply keeps_dirs_refl|]. split; [now left|]. now repeat split; intros; exfalso. }
    destruct (write_source fs (with_ext_path out0) py0) as [fs1|e] eqn:W; [|discriminate].
    destruct (IH _ _ H) as (K & O & F & C & D). destruct (write_source_spec _ _ _ _ W) as (G1 & O1 & K1 & D1).
    cbn [targets map snd]. fold (targets l).
    split; [now apply (keeps_dirs_trans _ fs1)|]. split; [|split; [|split]].
    - intros q N. apply Decidable.not_or in N. destruct N as [N1 N2].
      destruct (O1 q N1) as [E1|[[E1 E1'] P1]]; destruct (O q N2) as [E2|[[E2 E2'] (o & Io & Po)]].
      + left. congruence.
      + right. split; [split; congruence|]. exists o. split; [now right | assumption].
      + right. split; [split; congruence|]. exists (with_ext_path out0). split; [now left | assumption].
      + congruence.
    - intros q I. destruct (in_dec path_eq_dec q (targets l)) as [J|J]; [now apply F|].
      destruct I as [<-|I]; [|contradiction].
      destruct (O _ J) as [E|[[E _] _]]; [|congruence]. exists (crlf py0). congruence.
    - intros ND py out I. apply NoDup_cons_iff in ND. destruct ND as [N ND]. destruct I as [[= -> ->]|I]; [|now apply C].
      destruct (O _ N) as [E|[[E _] _]]; congruence.
    - intros py out I. destruct I as [[= -> ->]|I]; [|now apply (D py)]. now apply (dirs_exist_mono _ fs1).
  Qed.

  Lemma write_all_pick : forall src l fs fs', write_all fs l = (fs', None) ->
    (forall o q, In o (targets l) -> is_prefix q o -> under src q = None) ->
    flat_map (glob_pick src) fs' = flat_map (glob_pick src) fs.
  Proof.
    intros src. induction l as [|[py out] l IH]; intros fs fs' H O; cbn [Project.write_all] in H.
    - now injection H as <-.
    - destruct (write_source fs (with_ext_path out) py) as [fs1|e] eqn:W; [|discriminate].
      rewrite (IH _ _ H) by (intros o q I; apply O; now right).
      apply (write_source_pick _ _ _ _ _ W). intros q. apply O. now left.
  Qed.

  Lemma write_all_noop : forall l fs,
    (forall py out, In (py, out) l ->
       with_ext_path out <> [] /\ dirs_exist fs [] (parent (with_ext_path out)) /\
       fs_get fs (with_ext_path out) = Some (File (crlf py))) ->
    write_all fs l = (fs, None).
  Proof.
    induction l as [|[py out] l IH]; intros fs H; [reflexivity|]. cbn [Project.write_all].
    destruct (H py out (or_introl eq_refl)) as (N & D & G).
    rewrite (write_source_noop _ _ _ N D G). apply IH. intros py' out' I. apply H. now right.
  Qed.
End Writes.
