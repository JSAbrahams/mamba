(** * Two lexer runs whose positions differ by a number of lines (used by C14)

    [lex_sh d a b]: the span of [b] is the span of [a] moved down by [d] lines, unless the token
    is a synthetic layout token.  The tokens of interpolated expressions are related by kind only
    ([lex_k]): their first level moves with the string, deeper levels keep their positions.  The
    simulation ([sim_loop], [doc_pass_sim]) is proved once, for any relation [RI] between them
    that re-lexing at the two positions respects ([inner_ok]); with [d = 0] they are equal and
    the relation on top-level tokens is [tok_eqv] ([tls_eqv_rel]). *)
From Coq Require Import List Ascii ZArith Bool Lia Arith.
From MambaModel Require Import model.LexTok gen.LexTables model.Lex proofs.LexProps model.Trivia
  proofs.TriviaFuel proofs.TriviaScan proofs.TriviaSim.
Import ListNotations.
Local Open Scope Z_scope.

Definition shift (d : Z) (p : cpos) : cpos := {| line := line p + d; col := col p |}.

Definition lex_k (a b : lex) : Prop := ltok a = ltok b /\ lnested a = lnested b.
Definition lex_sh (d : Z) (a b : lex) : Prop :=
  ltok a = ltok b /\ lnested a = lnested b
  /\ (synthetic (ltok a) = false -> lstart b = shift d (lstart a) /\ lend b = shift d (lend a)).
Definition tl_sh (d : Z) (x y : tl) : Prop :=
  lex_sh d (top x) (top y) /\ Forall2 lex_k (inner x) (inner y).

Lemma lex_sh_k d a b : lex_sh d a b -> lex_k a b.
Proof. intros (H1 & H2 & _). split; assumption. Qed.

Lemma Forall2_impl2 {A B} (R R' : A -> B -> Prop) l l' :
  (forall a b, R a b -> R' a b) -> Forall2 R l l' -> Forall2 R' l l'.
Proof. intros H. induction 1; constructor; auto. Qed.

Lemma Forall2_repeat {A B} (R : A -> B -> Prop) x y n : R x y -> Forall2 R (repeat x n) (repeat y n).
Proof. intros H. induction n; cbn; constructor; assumption. Qed.

Lemma Forall2_rev2 {A B} (R : A -> B -> Prop) l l' : Forall2 R l l' -> Forall2 R (rev l) (rev l').
Proof.
  induction 1; cbn; [constructor|]. apply Forall2_app; [assumption | constructor; [assumption | constructor]].
Qed.

Lemma mk_lex_sh d p t : lex_sh d (mk_lex p t) (mk_lex (shift d p) t).
Proof.
  rewrite !mk_lex_eq. split; [reflexivity|]. split; [reflexivity|]. intros _. split; [reflexivity|].
  unfold shift. cbn [lend lstart line col]. f_equal. lia.
Qed.

Lemma lex_sh_mk_synth d p q t : synthetic t = true -> lex_sh d (mk_lex p t) (mk_lex q t).
Proof. intros H. split; [reflexivity|]. split; [reflexivity|]. cbn [ltok mk_lex]. rewrite H. discriminate. Qed.

Lemma shift0 p : shift 0 p = p.
Proof. destruct p. unfold shift. cbn. f_equal. lia. Qed.

Lemma tok_eqv_sh0 a b : tok_eqv a b <-> lex_sh 0 a b.
Proof.
  unfold tok_eqv, lex_sh. rewrite !shift0. split; intros (H1 & H2 & H3); repeat split; auto.
  - rewrite (H3 H); reflexivity.
  - rewrite (H3 H); reflexivity.
  - intros H. destruct (H3 H) as [A B]. destruct a, b; cbn in *; subst; reflexivity.
Qed.

Definition st_sh (d : Z) (a b : state) : Prop :=
  Forall2 (lex_sh d) (newlines a) (newlines b) /\ cur_indent a = cur_indent b
  /\ line_indent a = line_indent b /\ token_this_line a = token_this_line b
  /\ pos b = shift d (pos a).

Lemma st_sh_same_indent d a b : st_sh d a b -> same_indent a b.
Proof. intros H. apply H. Qed.

Lemma emit_layout_sh d a b : st_sh d a b -> Forall2 (lex_sh d) (emit_layout a) (emit_layout b).
Proof.
  intros (Hn & Hc & Hl & _ & Hp). unfold emit_layout. rewrite <- Hc, <- Hl, Hp.
  apply Forall2_rev2 in Hn.
  apply Forall2_app; [|apply Forall2_app].
  - destruct Hn; [constructor | constructor; [assumption | constructor]].
  - destruct (cur_indent a <=? line_indent a).
    + apply Forall2_repeat, mk_lex_sh.
    + apply Forall2_app; [apply Forall2_repeat, mk_lex_sh | constructor; [apply mk_lex_sh | constructor]].
  - destruct Hn; [constructor | apply Forall2_rev2; assumption].
Qed.

Lemma after_emit_sh d a b t : st_sh d a b -> st_sh d (after_emit a t) (after_emit b t).
Proof.
  intros (_ & _ & Hl & _ & Hp). unfold st_sh. rewrite !after_emit_pos, Hp.
  cbn [after_emit newlines cur_indent line_indent token_this_line]. rewrite <- Hl.
  split; [constructor|]. repeat split. unfold shift. cbn [line col]. f_equal. lia.
Qed.

Lemma state_newline_sh d a b : st_sh d a b -> st_sh d (state_newline a) (state_newline b).
Proof.
  intros (Hn & Hc & _ & _ & Hp). unfold state_newline, st_sh.
  cbn [newlines cur_indent line_indent token_this_line pos]. rewrite Hp.
  split; [apply Forall2_app; [exact Hn | constructor; [apply mk_lex_sh | constructor]]|].
  split; [exact Hc|]. repeat split. unfold shift. cbn. f_equal. lia.
Qed.

Lemma state_space_sh d a b : st_sh d a b -> st_sh d (state_space a) (state_space b).
Proof.
  intros (Hn & Hc & Hl & Hf & Hp). unfold state_space, st_sh.
  cbn [newlines cur_indent line_indent token_this_line pos]. rewrite <- Hl, <- Hf, Hp.
  repeat split; assumption.
Qed.

Definition nacc_rel (RI : list lex -> list lex -> Prop) (x y : nacc) : Prop :=
  match x, y with
  | inl (Some l1), inl (Some l2) => RI l1 l2
  | inl None, inl None => True
  | inr e1, inr e2 => e1 = e2
  | _, _ => False
  end.

Definition inner_ok (d : Z) (RI : list lex -> list lex -> Prop) : Prop :=
  RI [] []
  /\ (forall f p ex, nacc_rel RI (nest_all f p ex) (nest_all f (shift d p) ex))
  /\ (forall l l', RI l l' -> map ltok l = map ltok l').

Lemma lex_k_refl l : Forall2 lex_k l l.
Proof. induction l; constructor; [split; reflexivity | assumption]. Qed.

Lemma inner_ok_k d : inner_ok d (Forall2 lex_k).
Proof.
  split; [constructor|]. split.
  - intros f p ex. unfold nest_all.
    assert (G : forall a b, nacc_rel (Forall2 lex_k) a b ->
              nacc_rel (Forall2 lex_k) (fold_left (nest_step f p) ex a) (fold_left (nest_step f (shift d p)) ex b)).
    { induction ex as [|oe ex IH]; intros a b H; [exact H|]. cbn [fold_left]. apply IH.
      destruct a as [[l1|]|e1], b as [[l2|]|e2]; cbn in H; try contradiction; cbn [nest_step]; try exact H.
      destruct (f (snd oe)) as [[toks|e]|u]; cbn; [|reflexivity | exact I].
      apply Forall2_app; [exact H|]. induction toks as [|x toks IHt]; cbn [flat_map]; [constructor|].
      apply Forall2_app; [|exact IHt]. constructor; [split; reflexivity | apply lex_k_refl]. }
    apply G. constructor.
  - induction 1 as [|a b la lb [Hab _] _ IH]; [reflexivity|]. cbn [map]. rewrite Hab, IH. reflexivity.
Qed.

Lemma inner_ok_eq : inner_ok 0 eq.
Proof.
  split; [reflexivity|]. split; [|intros l l' ->; reflexivity].
  intros f p ex. rewrite shift0. destruct (nest_all f p ex) as [[l|]|e]; cbn; auto.
Qed.

Section Sim.
Variable d : Z.
Variable RI : list lex -> list lex -> Prop.
Hypothesis HRI : inner_ok d RI.

Definition tl_rel (x y : tl) : Prop := lex_sh d (top x) (top y) /\ RI (inner x) (inner y).

Lemma tl0_rel l l' : Forall2 (lex_sh d) l l' -> Forall2 tl_rel (map tl0 l) (map tl0 l').
Proof. induction 1; cbn; constructor; [split; [assumption | apply HRI] | assumption]. Qed.

Definition step_rel (x y : stepres) : Prop :=
  match x, y with
  | Halt _, Halt _ => True
  | OOF, OOF => True
  | Next r1 a o1, Next r2 b o2 => r1 = r2 /\ st_sh d a b /\ Forall2 tl_rel o1 o2
  | _, _ => False
  end.

Lemma emit_sim a b t inn inn' rest :
  st_sh d a b -> RI inn inn' -> step_rel (emit a t inn rest) (emit b t inn' rest).
Proof.
  intros H Hi. split; [reflexivity|]. split; [apply after_emit_sh, H|].
  apply Forall2_app; [apply tl0_rel, emit_layout_sh, H|]. constructor; [|constructor].
  split; [|exact Hi]. destruct H as (_ & _ & _ & _ & ->). apply mk_lex_sh.
Qed.

Lemma step_sim f c r a b : st_sh d a b -> step_rel (step f c r a) (step f c r b).
Proof.
  intros H. unfold step. destruct (scan c r) as [t rest | content exprs rest | rest | e].
  - destruct (is_nl t); [|apply emit_sim; [exact H | apply HRI]].
    split; [reflexivity|]. split; [apply state_newline_sh, H | constructor].
  - assert (Hp : pos b = shift d (pos a)) by apply H. rewrite Hp.
    pose proof (proj1 (proj2 HRI) f (pos a) exprs) as Hn.
    destruct (nest_all f (pos a) exprs) as [[inn|]|err], (nest_all f (shift d (pos a)) exprs) as [[inn'|]|err'];
      cbn in Hn; try contradiction; try exact I.
    apply emit_sim; assumption.
  - split; [reflexivity|]. split; [apply state_space_sh, H | constructor].
  - exact I.
Qed.

Definition res_rel (R : state -> state -> Prop) (x y : lres) : Prop :=
  match x, y with
  | inl (inl (a, oa)), inl (inl (b, ob)) => R a b /\ Forall2 tl_rel oa ob
  | inl (inr _), inl (inr _) => True
  | inr _, inr _ => True
  | _, _ => False
  end.

Lemma res_rel_with_acc R acc1 acc2 x y :
  Forall2 tl_rel acc1 acc2 -> res_rel R x y -> res_rel R (with_acc acc1 x) (with_acc acc2 y).
Proof.
  intros Ha. destruct x as [[[a oa]|e1]|u1], y as [[[b ob]|e2]|u2]; cbn; try tauto.
  intros [H1 H2]. split; [exact H1 | apply Forall2_app; assumption].
Qed.

Lemma res_rel_weaken (R R' : state -> state -> Prop) x y :
  (forall a b, R a b -> R' a b) -> res_rel R x y -> res_rel R' x y.
Proof.
  intros H. destruct x as [[[a oa]|e1]|u1], y as [[[b ob]|e2]|u2]; cbn; try tauto.
  intros [H1 H2]. split; [apply H, H1 | exact H2].
Qed.

Lemma sim_loop fuel : forall s a b,
  st_sh d a b -> res_rel (st_sh d) (tok_loop fuel s a []) (tok_loop fuel s b []).
Proof.
  induction fuel as [|fuel IH]; intros s a b H.
  - rewrite !tok_loop_O. exact I.
  - destruct s as [|c r].
    + rewrite !tok_loop_nil. cbn. split; [exact H | constructor].
    + rewrite !tok_loop_step. pose proof (step_sim (direct fuel) c r a b H) as Hs.
      destruct (step (direct fuel) c r a) as [e1| |r1 a1 o1], (step (direct fuel) c r b) as [e2| |r2 b1 o2];
        cbn [step_rel] in Hs; try contradiction; try exact I.
      destruct Hs as (-> & Hst & Ho). cbn [app].
      rewrite (loop_acc fuel r2 a1 o1), (loop_acc fuel r2 b1 o2).
      apply res_rel_with_acc; [exact Ho | apply IH, Hst].
Qed.

(** the line break about to be read resets the column, the indentation of the current line and
    its flag, so the two states need not agree on them *)
Lemma eol_sim R a b :
  hd_eol R = true -> Forall2 (lex_sh d) (newlines a) (newlines b) -> cur_indent a = cur_indent b ->
  line (pos b) = line (pos a) + d ->
  res_rel same_indent (lex_from a R) (lex_from b R).
Proof.
  intros HR Hn Hc Hl. destruct (eol_loop R HR) as [-> | [[R' E] | E]]; rewrite ?E.
  - rewrite !lex_from_nil. split; [exact Hc | constructor].
  - eapply res_rel_weaken; [exact (st_sh_same_indent d)|]. apply sim_loop.
    unfold st_sh, state_newline. cbn [newlines cur_indent line_indent token_this_line pos].
    split; [apply Forall2_app; [exact Hn | constructor; [apply lex_sh_mk_synth; reflexivity | constructor]]|].
    split; [exact Hc|]. repeat split. unfold shift. cbn [line col]. rewrite Hl. f_equal. lia.
  - exact I.
Qed.

Lemma lex_sh_str a b :
  lex_sh d a b ->
  (is_str (ltok a) = true /\ ltok a = ltok b
   /\ lstart b = shift d (lstart a) /\ lend b = shift d (lend a))
  \/ (is_str (ltok a) = false /\ is_str (ltok b) = false).
Proof.
  intros (Ht & _ & Hs). destruct (is_str (ltok a)) eqn:E.
  - left. destruct (Hs (is_str_not_synth _ E)) as [H1 H2]. repeat split; assumption.
  - right. split; [reflexivity | rewrite <- Ht; exact E].
Qed.

Lemma otop_rel x y : opt_rel tl_rel x y -> opt_rel (lex_sh d) (otop x) (otop y).
Proof. destruct x, y; cbn; try tauto. intros [H _]. exact H. Qed.

Lemma doc_get_sh f f' m m' b b' :
  opt_rel (lex_sh d) f f' -> opt_rel (lex_sh d) m m' -> opt_rel (lex_sh d) b b' -> opt_rel (lex_sh d) (doc_get f m b) (doc_get f' m' b').
Proof.
  intros Hf Hm Hb.
  destruct f as [lf|], f' as [lf'|]; cbn in Hf; try contradiction; [|exact I].
  destruct m as [lm|], m' as [lm'|]; cbn in Hm; try contradiction; [|rewrite !doc_get_none_m; exact I].
  destruct b as [lb|], b' as [lb'|]; cbn in Hb; try contradiction; [|rewrite !doc_get_none_b; exact I].
  destruct (lex_sh_str _ _ Hf) as [(F1 & F2 & F3 & F4) | [H1 H2]];
    [|rewrite (doc_get_f_nonstr _ _ _ H1), (doc_get_f_nonstr _ _ _ H2); exact I].
  destruct (lex_sh_str _ _ Hm) as [(M1 & M2 & M3 & M4) | [H1 H2]];
    [|rewrite (doc_get_m_nonstr _ _ _ H1), (doc_get_m_nonstr _ _ _ H2); exact I].
  destruct (lex_sh_str _ _ Hb) as [(B1 & B2 & B3 & B4) | [H1 H2]];
    [|rewrite (doc_get_b_nonstr _ _ _ H1), (doc_get_b_nonstr _ _ _ H2); exact I].
  unfold doc_get. rewrite <- F2, <- M2, <- B2.
  destruct (ltok lf) eqn:Ef; try (cbn in F1; discriminate F1).
  destruct (ltok lm) eqn:Em; try (cbn in M1; discriminate M1).
  destruct (ltok lb) eqn:Eb; try (cbn in B1; discriminate B1).
  rewrite F4, M3, M4, B3. unfold shift. cbn [col].
  match goal with |- opt_rel (lex_sh d) (if ?c then _ else _) _ => destruct c end; [|exact I].
  cbn [opt_rel]. rewrite F3. apply mk_lex_sh.
Qed.

Lemma opt_list_rel (m m' : option tl) :
  opt_rel tl_rel m m' ->
  Forall2 tl_rel (match m with Some l => [l] | None => [] end) (match m' with Some l => [l] | None => [] end).
Proof. destruct m, m'; cbn; try tauto; intros H; constructor; [exact H | constructor]. Qed.

Lemma doc_pass_sim input input' :
  Forall2 tl_rel input input' ->
  forall m m' b b', opt_rel tl_rel m m' -> opt_rel tl_rel b b' ->
    Forall2 tl_rel (doc_pass None m b input) (doc_pass None m' b' input').
Proof.
  induction 1 as [|l l' rest rest' Hl Hrest IH]; intros m m' b b' Hm Hb.
  - cbn [doc_pass app]. apply Forall2_app; apply opt_list_rel; assumption.
  - cbn [doc_pass].
    pose proof (doc_get_sh (otop m) (otop m') (otop b) (otop b') (otop (Some l)) (otop (Some l'))
                  (otop_rel _ _ Hm) (otop_rel _ _ Hb) (otop_rel (Some l) (Some l') Hl)) as Hg.
    destruct (doc_get (otop m) (otop b) (otop (Some l))) as [x|],
             (doc_get (otop m') (otop b') (otop (Some l'))) as [x'|]; cbn in Hg; try contradiction.
    + constructor; [split; [exact Hg | apply HRI] | apply IH; exact I].
    + destruct m as [y|], m' as [y'|]; cbn in Hm; try contradiction.
      * constructor; [exact Hm | apply IH; [exact Hb | exact Hl]].
      * apply IH; [exact Hb | exact Hl].
Qed.

Lemma docstring_pass_sim l l' : Forall2 tl_rel l l' -> Forall2 tl_rel (docstring_pass l) (docstring_pass l').
Proof. intros H. apply doc_pass_sim; [exact H | exact I | exact I]. Qed.

Lemma tail_sim p q a oa b ob :
  same_indent a b -> Forall2 tl_rel oa ob -> Forall2 tl_rel (tail_of p (a, oa)) (tail_of q (b, ob)).
Proof.
  intros Hi Ho. unfold tail_of. cbn [fst snd]. apply Forall2_app; [exact Ho|]. apply Forall2_app.
  - apply tl0_rel. unfold flush_indents. rewrite Hi. apply Forall2_repeat, lex_sh_mk_synth. reflexivity.
  - constructor; [|constructor]. split; [apply lex_sh_mk_synth; reflexivity | apply HRI].
Qed.

Lemma kinds_flatten_sim l1 l2 : Forall2 tl_rel l1 l2 -> map ltok (flatten l1) = map ltok (flatten l2).
Proof.
  induction 1 as [|x y l1 l2 [[Hk _] Hin] _ IH]; [reflexivity|].
  unfold flatten in *. cbn [flat_map]. rewrite !map_app, IH. f_equal. cbn [map].
  rewrite Hk, (proj2 (proj2 HRI) _ _ Hin). reflexivity.
Qed.

End Sim.

Lemma tls_eqv_rel l l' : Forall2 tl_eqv l l' <-> Forall2 (tl_rel 0 eq) l l'.
Proof. split; apply Forall2_impl2; intros x y; unfold tl_eqv, tl_rel; rewrite tok_eqv_sh0; tauto. Qed.
