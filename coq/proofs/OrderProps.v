(** Permutation invariance, and its failures, of the hash-ordered sites of [model/Order.v].  A site is invariant
    because its enumeration is sorted by a total order on pairwise different keys ([isort_key_perm]), searched for
    a match that is unique ([find_perm_unique]), folded with a commutative step, or read only at its first
    element, on which all elements agree ([hd_const_perm]; a search is the first element of a filter, [find_hd]);
    unions return the same SET ([seteq], [name_union_seteq]), not the same list ([trim_super]: props/C12.v, from
    [filter_perm] and [existsb_perm]).
    Otherwise two enumerations with different answers are exhibited.
    Total orders are proved one left argument at a time ([ord_at]), so that the nested [tcmp] goes by induction. *)
From Coq Require Import List String Ascii Bool Arith PeanoNat Lia Permutation Structures.OrderedTypeEx.
Import ListNotations.
Local Open Scope string_scope.
Local Open Scope list_scope.
From MambaModel Require Import model.Order.

Record total_order {A : Type} (cmp : A -> A -> comparison) : Prop := {
  to_eq : forall x y, cmp x y = Eq -> x = y;
  to_antisym : forall x y, cmp y x = CompOpp (cmp x y);
  to_trans : forall x y z, cmp x y = Lt -> cmp y z = Lt -> cmp x z = Lt }.

Lemma compopp_fix : forall r, r = CompOpp r -> r = Eq.
Proof. destruct r; simpl; congruence. Qed.

Lemma to_refl {A} (cmp : A -> A -> comparison) : total_order cmp -> forall x, cmp x x = Eq.
Proof. intros H x. apply compopp_fix. apply (to_antisym _ H). Qed.

Lemma NoDup_map_inj_on {A B} (f : A -> B) : forall l x y,
  NoDup (map f l) -> In x l -> In y l -> f x = f y -> x = y.
Proof.
  induction l as [|a t IH]; intros x y Hn Hx Hy Hf; [contradiction|].
  cbn [map] in Hn. apply NoDup_cons_iff in Hn. destruct Hn as [Hna Hn].
  destruct Hx as [-> |Hx], Hy as [-> |Hy]; try reflexivity.
  - exfalso. apply Hna. rewrite Hf. now apply in_map.
  - exfalso. apply Hna. rewrite <- Hf. now apply in_map.
  - now apply IH.
Qed.

(** The laws of [total_order] at one left argument.  The third speaks of [<> Gt] on the right: in this form
    a composite order has it at [x] as soon as its parts have the three laws at the parts of [x], which is what
    an induction on [x] provides. *)
Definition ord_at {A} (c : A -> A -> comparison) (x : A) : Prop :=
  forall y, (c x y = Eq -> x = y) /\ c y x = CompOpp (c x y) /\
            forall z, c x y = Lt -> c y z <> Gt -> c x z = Lt.

Lemma total_order_at {A} (c : A -> A -> comparison) : total_order c <-> forall x, ord_at c x.
Proof.
  split.
  - intros H x y. split; [apply (to_eq _ H)|split; [apply (to_antisym _ H)|]]. intros z H1 H2.
    destruct (c y z) eqn:E; [|now apply (to_trans _ H x y z)|congruence].
    apply (to_eq _ H) in E. now subst z.
  - intros H. split; intros x y; [apply H|apply H|]. intros z H1 H2. apply (H x y); [exact H1|].
    rewrite H2. discriminate.
Qed.

(** [Ord] for tuples and for structs with [derive(Ord)] *)
Definition prodcmp {A B} (ca : A -> A -> comparison) (cb : B -> B -> comparison) (p q : A * B) : comparison :=
  match ca (fst p) (fst q) with Eq => cb (snd p) (snd q) | r => r end.

Lemma prod_ord_at {A B} (ca : A -> A -> comparison) (cb : B -> B -> comparison) a b :
  ord_at ca a -> ord_at cb b -> ord_at (prodcmp ca cb) (a, b).
Proof.
  intros Ha Hb [a' b']. unfold prodcmp. cbn [fst snd].
  destruct (Ha a') as (Ea & Sa & Ta), (Hb b') as (Eb & Sb & Tb). split; [|split].
  - destruct (ca a a'); try discriminate. intros H. f_equal; auto.
  - rewrite Sa. destruct (ca a a'); cbn [CompOpp]; auto.
  - intros [a'' b'']. cbn [fst snd]. destruct (ca a a') eqn:E1; try discriminate.
    + rewrite <- (Ea eq_refl). destruct (ca a a''); [apply Tb|reflexivity|]. intros _ H. now destruct H.
    + intros _ H. rewrite (Ta a'' eq_refl); [reflexivity|]. intros G. now rewrite G in H.
Qed.

Lemma prod_total {A B} (ca : A -> A -> comparison) (cb : B -> B -> comparison) :
  total_order ca -> total_order cb -> total_order (prodcmp ca cb).
Proof. intros Ha Hb. apply total_order_at. intros [a b]. apply prod_ord_at; now apply total_order_at. Qed.

(** a non-empty list against a non-empty list is the pair (head, tail) against the pair (head, tail) *)
Lemma lex_ord_at {A} (c : A -> A -> comparison) : forall l, Forall (ord_at c) l -> ord_at (lex c) l.
Proof.
  induction l as [|x t IH]; intros Hf [|y u]; cbn [lex].
  - split; [reflexivity|split; [reflexivity|discriminate]].
  - split; [discriminate|split; [reflexivity|]]. intros [|z v] _ H; [now destruct H|reflexivity].
  - split; [discriminate|split; [reflexivity|discriminate]].
  - apply Forall_cons_iff in Hf. destruct Hf as [Hx Ht].
    destruct (prod_ord_at c (lex c) x t Hx (IH Ht) (y, u)) as (E & S & T).
    split; [intros H; now injection (E H) as -> ->|split; [exact S|]].
    intros [|z v]; [intros _ H; now destruct H|exact (T (z, v))].
Qed.

Lemma lex_total_order {A} (c : A -> A -> comparison) : total_order c -> total_order (lex c).
Proof.
  intros Ho. apply total_order_at. intros l. apply lex_ord_at, Forall_forall. intros x _. now apply total_order_at.
Qed.

Lemma ord_at_map {A B} (f : A -> B) (c : B -> B -> comparison) (c' : A -> A -> comparison) x :
  (forall y, f x = f y -> x = y) -> (forall a b, c' a b = c (f a) (f b)) -> ord_at c (f x) -> ord_at c' x.
Proof.
  intros Hinj Hc H y. rewrite !Hc. destruct (H (f y)) as (E & S & T).
  split; [auto|split; [exact S|]]. intros z. rewrite !Hc. apply T.
Qed.

(** Insertions of two elements with different keys commute, so the sorted list is the same for every
    order of presentation.  Covers [sorted()] on a set (key = canonical form) and [sorted_by_key(pos)]
    (key = recorded position). *)
Lemma insert_comm {A B} (cmp : A -> A -> comparison) (f : B -> A) : total_order cmp ->
  forall x y s, cmp (f x) (f y) = Lt ->
  let c := fun a b => cmp (f a) (f b) in insert c x (insert c y s) = insert c y (insert c x s).
Proof.
  intros Ho x y s Hxy c.
  assert (Lxy : leb c x y = true) by (unfold leb, c; now rewrite Hxy).
  assert (Lyx : leb c y x = false) by (unfold leb, c; now rewrite (to_antisym _ Ho), Hxy).
  induction s as [|z t IH]; cbn [insert]; [now rewrite Lxy, Lyx|].
  destruct (leb c y z) eqn:Eyz, (leb c x z) eqn:Exz; cbn [insert]; rewrite ?Lxy, ?Lyx, ?Eyz, ?Exz; try reflexivity.
  - (* x < y <= z and yet z < x *)
    exfalso. unfold leb, c in Eyz, Exz. destruct (proj1 (total_order_at cmp) Ho (f x) (f y)) as (_ & _ & T).
    rewrite (T (f z) Hxy) in Exz; [discriminate|]. intros G. now rewrite G in Eyz.
  - now rewrite IH.
Qed.

Theorem isort_key_perm {A B} (cmp : A -> A -> comparison) (f : B -> A) :
  total_order cmp -> forall l l',
  NoDup (map f l) -> Permutation l l' ->
  isort (fun x y => cmp (f x) (f y)) l = isort (fun x y => cmp (f x) (f y)) l'.
Proof.
  intros Ho l l' Hn Hp. induction Hp as [|x l l' Hp IH|x y l|l l' l'' Hp1 IH1 Hp2 IH2]; cbn [isort].
  - reflexivity.
  - cbn [map] in Hn. apply NoDup_cons_iff in Hn. now rewrite IH.
  - cbn [map] in Hn. apply NoDup_cons_iff in Hn. destruct Hn as [Hn _].
    destruct (cmp (f x) (f y)) eqn:E.
    + destruct Hn. left. now apply (to_eq _ Ho).
    + symmetry. now apply (insert_comm cmp f Ho).
    + apply (insert_comm cmp f Ho). now rewrite (to_antisym _ Ho), E.
  - rewrite IH1, IH2; [reflexivity| |exact Hn]. eapply Permutation_NoDup; [apply Permutation_map; exact Hp1|exact Hn].
Qed.

Section tname_ind2.
  Variable P : tname -> Prop.
  Hypothesis H : forall n m s gs, Forall (Forall P) gs -> P (TN n m s gs).
  Fixpoint tname_ind2 (t : tname) : P t :=
    match t with
    | TN n m s gs =>
      H n m s gs
        ((fix go1 (gs : list (list tname)) : Forall (Forall P) gs :=
            match gs with
            | [] => Forall_nil _
            | g :: r =>
              Forall_cons g
                ((fix go2 (g : list tname) : Forall P g :=
                    match g with
                    | [] => Forall_nil _
                    | x :: r2 => Forall_cons x (tname_ind2 x) (go2 r2)
                    end) g)
                (go1 r)
            end) gs)
    end.
End tname_ind2.

Lemma bool_cmp_total : total_order bool_cmp.
Proof. split; [intros [] []|intros [] []|intros [] [] []]; cbn; congruence. Qed.

Lemma string_cmp_total : total_order String.compare.
Proof.
  split.
  - apply String.compare_eq_iff.
  - intros x y. apply String.compare_antisym.
  - intros x y z H1 H2.
    apply (proj1 (String_as_OT.cmp_lt x y)) in H1. apply (proj1 (String_as_OT.cmp_lt y z)) in H2.
    apply (proj2 (String_as_OT.cmp_lt x z)). eapply String_as_OT.lt_trans; eassumption.
Qed.

Lemma nat_cmp_total : total_order Nat.compare.
Proof.
  split.
  - apply Nat.compare_eq.
  - intros x y. apply Nat.compare_antisym.
  - intros x y z H1 H2. apply Nat.compare_lt_iff in H1, H2. apply Nat.compare_lt_iff. lia.
Qed.

(** [tcmp] compares the tuple (name, generics, nullable, mutable) *)
Theorem tcmp_total : total_order tcmp.
Proof.
  apply total_order_at. induction x as [n m s g IH] using tname_ind2.
  apply (ord_at_map (fun t => let 'TN n m s g := t in (s, (g, (n, m))))
           (prodcmp String.compare (prodcmp (lex (lex tcmp)) (prodcmp bool_cmp bool_cmp)))).
  - intros [] [= <- <- <- <-]. reflexivity.
  - intros [] []. reflexivity.
  - apply prod_ord_at; [now apply total_order_at, string_cmp_total|]. apply prod_ord_at.
    + apply lex_ord_at. eapply Forall_impl; [|exact IH]. apply lex_ord_at.
    + now apply total_order_at, prod_total; apply bool_cmp_total.
Qed.

Lemma tn_eqb_spec : forall a b, tn_eqb a b = true <-> canon a = canon b.
Proof.
  intros a b. unfold tn_eqb, rcmp. split.
  - destruct (tcmp (canon a) (canon b)) eqn:E; try discriminate. intros _. now apply (to_eq _ tcmp_total).
  - intros ->. now rewrite (to_refl _ tcmp_total).
Qed.

Lemma filter_perm {A} (p : A -> bool) : forall l l', Permutation l l' -> Permutation (filter p l) (filter p l').
Proof.
  intros l l' Hp. induction Hp; cbn [filter].
  - constructor.
  - destruct (p x); [now constructor|assumption].
  - destruct (p x), (p y); try reflexivity. apply perm_swap.
  - etransitivity; eassumption.
Qed.

Lemma hd_const_perm {A B} (f : A -> B) : forall l l',
  (forall x y, In x l -> In y l -> f x = f y) -> Permutation l l' ->
  option_map f (hd_error l) = option_map f (hd_error l').
Proof.
  intros l l' H Hp. pose proof (Permutation_length Hp) as L.
  destruct l as [|x t], l' as [|y u]; try discriminate L; [reflexivity|]. cbn [hd_error option_map].
  f_equal. apply H; [now left|]. eapply Permutation_in; [apply Permutation_sym; exact Hp|now left].
Qed.

Lemma find_hd {A} (p : A -> bool) : forall l, find p l = hd_error (filter p l).
Proof. induction l as [|x t IH]; cbn [find filter]; [reflexivity|]. now destruct (p x). Qed.

Lemma find_perm_unique {A} (p : A -> bool) : forall l l',
  (forall x y, In x l -> In y l -> p x = true -> p y = true -> x = y) ->
  Permutation l l' -> find p l = find p l'.
Proof.
  intros l l' Hu Hp. rewrite !find_hd. apply (filter_perm p) in Hp. apply (hd_const_perm (fun x => x)) in Hp.
  - destruct (hd_error (filter p l)), (hd_error (filter p l')); exact Hp.
  - intros x y Hx Hy. apply filter_In in Hx, Hy. apply Hu; tauto.
Qed.

Lemma find_by_name_perm (n : string) (p : gdef -> bool) : forall l l',
  (forall x, p x = true -> g_name x = n) -> NoDup (map g_name l) -> Permutation l l' -> find p l = find p l'.
Proof.
  intros l l' Hp Hn. apply find_perm_unique. intros x y Hx Hy Px Py.
  apply (NoDup_map_inj_on g_name l); try assumption. now rewrite (Hp x Px), (Hp y Py).
Qed.

Lemma find_app_split {A} (p : A -> bool) : forall a b,
  find p (a ++ b) = match find p a with Some x => Some x | None => find p b end.
Proof. induction a as [|x t IH]; intros b; cbn [find app]; [reflexivity|]. destruct (p x); auto. Qed.

Lemma fold_left_perm {A B} (f : A -> B -> A) :
  (forall a x y, f (f a x) y = f (f a y) x) ->
  forall l l', Permutation l l' -> forall a, fold_left f l a = fold_left f l' a.
Proof.
  intros Hc l l' Hp. induction Hp; intros a; cbn [fold_left]; auto.
  - now rewrite Hc.
  - now rewrite IHHp1.
Qed.

Lemma filter_all {A} (p : A -> bool) : forall l, (forall x, In x l -> p x = true) -> filter p l = l.
Proof.
  induction l as [|x t IH]; intros H; cbn [filter]; [reflexivity|].
  rewrite (H x (or_introl eq_refl)). f_equal. apply IH. intros y Hy. apply H. now right.
Qed.

Lemma existsb_perm {A} (p : A -> bool) : forall l l', Permutation l l' -> existsb p l = existsb p l'.
Proof.
  intros l l' Hp. induction Hp; cbn [existsb]; auto.
  - now rewrite IHHp.
  - destruct (p x), (p y); reflexivity.
  - congruence.
Qed.

Lemma existsb_map {A B} (p : B -> bool) (f : A -> B) : forall l, existsb p (map f l) = existsb (fun x => p (f x)) l.
Proof. induction l as [|x t IH]; cbn [existsb map]; [reflexivity|]. now rewrite IH. Qed.

Lemma concat_perm {A} : forall (l l' : list (list A)), Permutation l l' -> Permutation (List.concat l) (List.concat l').
Proof.
  intros l l' Hp. induction Hp; cbn [List.concat].
  - constructor.
  - now apply Permutation_app_head.
  - rewrite !app_assoc. apply Permutation_app_tail. apply Permutation_app_comm.
  - etransitivity; eassumption.
Qed.

Lemma inserts_perm {A} (x : A) : forall q p, In p (inserts x q) -> Permutation (x :: q) p.
Proof.
  induction q as [|y t IH]; intros p H; cbn [inserts] in H.
  - destruct H as [<-|[]]. reflexivity.
  - destruct H as [<-|H]; [reflexivity|].
    apply in_map_iff in H. destruct H as [r [<- Hr]].
    etransitivity; [apply perm_swap|]. constructor. now apply IH.
Qed.

Lemma inserts_mid {A} (x : A) : forall a b, In (a ++ x :: b) (inserts x (a ++ b)).
Proof.
  induction a as [|y t IH]; intros b; cbn [app].
  - destruct b; cbn [inserts]; now left.
  - cbn [inserts]. right. apply in_map. apply IH.
Qed.

(** the executable enumeration [perms] is exactly the quantifier of the theorems *)
Theorem perms_spec {A} : forall (l p : list A), In p (perms l) <-> Permutation l p.
Proof.
  induction l as [|x t IH]; intros p; cbn [perms].
  - split.
    + intros [<-|[]]. constructor.
    + intros H. apply Permutation_nil in H. subst. now left.
  - rewrite in_flat_map. split.
    + intros [q [Hq Hp]]. apply IH in Hq. etransitivity; [constructor; exact Hq|]. now apply inserts_perm.
    + intros H.
      assert (Hin : In x p) by (eapply Permutation_in; [exact H|now left]).
      apply in_split in Hin. destruct Hin as [a [b ->]].
      exists (a ++ b). split; [|apply inserts_mid].
      apply IH. eapply Permutation_cons_app_inv. exact H.
Qed.

Lemma name_to_py_perm : forall name l l',
  NoDup (map canon l) -> Permutation l l' -> name_to_py name l = name_to_py name l'.
Proof.
  intros name l l' Hn Hp.
  assert (Hs : isort rcmp l = isort rcmp l') by exact (isort_key_perm tcmp canon tcmp_total l l' Hn Hp).
  pose proof (Permutation_length Hp) as L.
  destruct l as [|x [|y t]], l' as [|x' [|y' t']]; try discriminate L.
  - reflexivity.
  - now rewrite (Permutation_length_1 Hp).
  - unfold name_to_py. now rewrite Hs.
Qed.

Theorem render_union_perm : forall fuel l l',
  NoDup (map canon l) -> Permutation l l' -> to_py_name fuel l = to_py_name fuel l'.
Proof. intros [|f] l l' Hn Hp; [reflexivity|]. cbn [to_py_name]. now apply name_to_py_perm. Qed.

Lemma key_eqb_eq : forall a b, key_eqb a b = true <-> a = b.
Proof.
  intros [x|x] [y|y]; cbn [key_eqb]; rewrite ?String.eqb_eq; split; congruence.
Qed.

Lemma keys_unique_pred : forall (k : key) (e : list entry),
  NoDup (map e_key e) ->
  forall x y, In x e -> In y e -> key_eqb (e_key x) k = true -> key_eqb (e_key y) k = true -> x = y.
Proof.
  intros k e Hn x y Hx Hy Kx Ky. apply key_eqb_eq in Kx, Ky.
  eapply NoDup_map_inj_on; try eassumption. congruence.
Qed.

Theorem find_init_perm : forall e e',
  NoDup (map e_key e) -> Permutation e e' -> find_init e = find_init e'.
Proof. intros e e' Hn Hp. apply find_perm_unique; [|exact Hp]. now apply keys_unique_pred. Qed.

Theorem init_pos_new_perm : forall e e', Permutation e e' -> init_pos_new e = init_pos_new e'.
Proof.
  intros e e' Hp. unfold init_pos_new. apply fold_left_perm; [|exact Hp].
  intros a x y. destruct (e_var x), (e_var y); lia.
Qed.

Lemma NoDup_map_filter {A B} (f : A -> B) (q : A -> bool) : forall l,
  NoDup (map f l) -> NoDup (map f (filter q l)).
Proof.
  induction l as [|x t IH]; cbn [map filter]; intros Hn; [exact Hn|].
  apply NoDup_cons_iff in Hn. destruct Hn as [Hx Hn]. destruct (q x); cbn [map]; [|now apply IH].
  constructor; [|now apply IH]. intros H. apply Hx. apply in_map_iff in H. destruct H as (y & E & Hy).
  apply filter_In in Hy. rewrite <- E. now apply in_map.
Qed.

(** What [HashMap::insert] does, up to the order of the list: the new entry, and the entries with other
    keys.  Every invariant of the map below is insensitive to that order. *)
Definition others (x : entry) (m : list entry) : list entry :=
  filter (fun y => negb (key_eqb (e_key y) (e_key x))) m.

Lemma map_insert_perm : forall x e, NoDup (map e_key e) -> Permutation (map_insert x e) (x :: others x e).
Proof.
  induction e as [|y t IH]; intros Hn; cbn [map_insert others filter]; [reflexivity|]. fold (others x t).
  cbn [map] in Hn. apply NoDup_cons_iff in Hn. destruct Hn as [Hy Hn].
  destruct (key_eqb (e_key y) (e_key x)) eqn:E; cbn [negb].
  - unfold others. rewrite filter_all; [reflexivity|]. intros z Hz. apply negb_true_iff.
    destruct (key_eqb (e_key z) (e_key x)) eqn:Ez; [|reflexivity].
    apply key_eqb_eq in E, Ez. exfalso. apply Hy. rewrite E, <- Ez. now apply in_map.
  - rewrite (IH Hn). apply perm_swap.
Qed.

Lemma map_insert_nodup_f {B} (f : entry -> B) : forall x m,
  NoDup (map e_key m) -> NoDup (map f m) -> (forall y, In y m -> e_key y <> e_key x -> f y <> f x) ->
  NoDup (map f (map_insert x m)).
Proof.
  intros x m Hk Hn Hx.
  eapply Permutation_NoDup; [apply Permutation_sym, Permutation_map, map_insert_perm, Hk|]. cbn [map].
  constructor; [|now apply NoDup_map_filter]. intros H. apply in_map_iff in H. destruct H as (y & E & Hy).
  apply filter_In in Hy. destruct Hy as [Hy Q]. apply (Hx y Hy); [|exact E].
  intros K. rewrite K, (proj2 (key_eqb_eq _ _) eq_refl) in Q. discriminate.
Qed.

Lemma map_insert_forall (P : entry -> Prop) : forall x m, P x -> Forall P m -> Forall P (map_insert x m).
Proof.
  induction m as [|y t IH]; intros Hx Hm; cbn [map_insert]; [now repeat constructor|].
  apply Forall_cons_iff in Hm. destruct Hm as [Hy Ht].
  destruct (key_eqb (e_key y) (e_key x)); constructor; auto.
Qed.

Theorem add_init_perm : forall b e e',
  NoDup (map e_key e) -> Permutation e e' -> Permutation (add_init b e) (add_init b e').
Proof.
  intros b e e' Hn Hp. unfold add_init. destruct b; [|exact Hp].
  rewrite <- (find_init_perm e e' Hn Hp), <- (init_pos_new_perm e e' Hp).
  assert (Hn' : NoDup (map e_key e')).
  { eapply Permutation_NoDup; [|exact Hn]. now apply Permutation_map. }
  rewrite (map_insert_perm _ e Hn), (map_insert_perm _ e' Hn').
  constructor. now apply filter_perm.
Qed.

Lemma pk_cmp_total : total_order pk_cmp.
Proof. exact (prod_total _ _ nat_cmp_total nat_cmp_total). Qed.

Theorem class_body_perm : forall e e',
  NoDup (map e_pk e) -> Permutation e e' -> class_body e = class_body e'.
Proof.
  intros e e' Hn Hp. unfold class_body. f_equal.
  exact (isort_key_perm pk_cmp e_pk pk_cmp_total e e' Hn Hp).
Qed.

(** The recorded positions are pairwise distinct: every entry made from the statement at body index [i] carries
    [(i+2, 2)] or [(i, 0)], so the index can be read back from the pair ([idx_of]), and different entries come
    from different indices. *)
Definition idx_of (pk : nat * nat) : nat := if Nat.eqb (snd pk) 2 then fst pk - 2 else fst pk.
Definition idxf (e : entry) : nat := idx_of (e_pk e).

Lemma stmt_entry_idx : forall i m, idxf (stmt_entry i m) = i.
Proof.
  intros i m. unfold idxf, idx_of, e_pk.
  destruct m as [id|op|k [|]|]; cbn [stmt_entry e_pos e_kind fst snd Nat.eqb]; try reflexivity; lia.
Qed.

Lemma stmt_entry_kind : forall i m, e_kind (stmt_entry i m) <> 1.
Proof. intros i m. destruct m as [id|op|k [|]|]; cbn [stmt_entry e_kind]; discriminate. Qed.

Lemma entries_from_inv : forall ms i acc,
  NoDup (map e_key acc) -> Forall (fun e => idxf e < i) acc -> NoDup (map idxf acc) ->
  Forall (fun e => e_kind e <> 1) acc ->
  NoDup (map e_key (entries_from i ms acc)) /\ NoDup (map idxf (entries_from i ms acc)) /\
  Forall (fun e => e_kind e <> 1) (entries_from i ms acc).
Proof.
  induction ms as [|m t IH]; intros i acc Hkey Hlt Hn Hk; cbn [entries_from]; [now repeat split|].
  apply IH.
  - now apply map_insert_nodup_f.
  - apply map_insert_forall.
    + rewrite stmt_entry_idx. lia.
    + eapply Forall_impl; [|exact Hlt]. cbn beta. intros e He. lia.
  - apply map_insert_nodup_f; [exact Hkey|exact Hn|]. intros y Hy _.
    rewrite stmt_entry_idx. rewrite Forall_forall in Hlt. specialize (Hlt y Hy). lia.
  - apply map_insert_forall; [apply stmt_entry_kind|exact Hk].
Qed.

Lemma entries_inv : forall ms,
  NoDup (map e_key (entries ms)) /\ NoDup (map e_pk (entries ms)) /\ Forall (fun e => e_kind e <> 1) (entries ms).
Proof.
  intros ms.
  destruct (entries_from_inv ms 0 [] (NoDup_nil _) (Forall_nil _) (NoDup_nil _) (Forall_nil _)) as (Hkey & Hn & Hk).
  split; [exact Hkey|split; [|exact Hk]].
  apply (NoDup_map_inv idx_of). rewrite map_map. exact Hn.
Qed.

(** the constructor takes over the pair of the [__init__] it replaces, or is the only entry of kind 1 *)
Theorem positions_distinct : forall mk ms, NoDup (map e_pk (add_init mk (entries ms))).
Proof.
  intros mk ms. destruct (entries_inv ms) as (Hkeys & Hp & Hkind).
  unfold add_init. destruct mk; [|exact Hp].
  apply map_insert_nodup_f; [exact Hkeys|exact Hp|]. cbn [e_key]. intros y Hy Ky.
  unfold e_pk at 2. cbn [e_pos e_kind]. rewrite <- surjective_pairing.
  destruct (find_init (entries ms)) as [o|] eqn:Ef.
  - apply find_some in Ef. destruct Ef as [Ho Ko]. apply key_eqb_eq in Ko.
    intros E. apply Ky. rewrite <- Ko. f_equal. exact (NoDup_map_inj_on e_pk _ y o Hp Hy Ho E).
  - rewrite Forall_forall in Hkind. intros E. apply (Hkind y Hy). now inversion E.
Qed.

(** The whole of [extract_class]'s ordering: [e1] is an iteration order of the map before the constructor is
    inserted (used by [find] and [max]), [e2] one of the final map (used by [values().sorted_by_key]).  The
    class body is that of the canonical content - for every class body, no side condition. *)
Lemma class_body_canonical : forall mk ms e1 e2,
  Permutation (entries ms) e1 -> Permutation (add_init mk e1) e2 ->
  class_body (add_init mk (entries ms)) = class_body e2.
Proof.
  intros mk ms e1 e2 H1 H2. destruct (entries_inv ms) as [Hk _].
  apply class_body_perm; [apply positions_distinct|].
  etransitivity; [apply add_init_perm; [exact Hk|exact H1]|exact H2].
Qed.

Theorem class_body_deterministic : forall mk ms e1 e1' e2 e2',
  Permutation (entries ms) e1 -> Permutation (entries ms) e1' ->
  Permutation (add_init mk e1) e2 -> Permutation (add_init mk e1') e2' ->
  class_body e2 = class_body e2'.
Proof.
  intros mk ms e1 e1' e2 e2' H1 H1' H2 H2'.
  now rewrite <- (class_body_canonical mk ms e1 e2), <- (class_body_canonical mk ms e1' e2').
Qed.

(** Historical (D15, fixed by /repo commit 88d54a3): with the OLD numbering, which compared the slot alone, the body
    [method, field, field, method, field] had the first method (slot 0+2) tie with the field at index 2, and two
    iteration orders of the same map gave two different class bodies.  This is a statement about
    [class_body_old], not about the current code. *)
Definition d15_members : list member :=
  [MFun "m1"; MVar "f1" true; MVar "f2" true; MFun "m2"; MVar "f3" true].

Theorem d15_old_numbering_refuted :
  exists ms e e',
    Permutation (add_init false (entries ms)) e /\ Permutation (add_init false (entries ms)) e' /\
    class_body_old e <> class_body_old e' /\ class_body e = class_body e'.
Proof.
  exists d15_members, (add_init false (entries d15_members)), (rev (add_init false (entries d15_members))).
  split; [reflexivity|]. split; [apply Permutation_rev|]. split; vm_compute; [discriminate|reflexivity].
Qed.

(** [class Foo] and [class Foo[T]] are different elements of [Context.classes] (identity = name and
    generics) but are looked up by the base name alone *)
Definition foo_plain : gdef := {| g_name := "Foo"; g_generics := []; g_sig := ""; g_id := 0 |}.
Definition foo_generic : gdef := {| g_name := "Foo"; g_generics := [[tn "T"]]; g_sig := ""; g_id := 1 |}.

Theorem class_lookup_refuted :
  exists defs n e e',
    Permutation (ctx_build defs) e /\ Permutation (ctx_build defs) e' /\
    class_lookup n e <> class_lookup n e'.
Proof.
  exists [foo_plain; foo_generic], "Foo", [foo_plain; foo_generic], [foo_generic; foo_plain].
  split; [vm_compute; reflexivity|]. split; [vm_compute; apply perm_swap|]. vm_compute. discriminate.
Qed.

(** two top-level [def helper] with different signatures: both in [Context.functions], found by name *)
Definition helper_int : gdef := {| g_name := "helper"; g_generics := []; g_sig := "(x: Int) -> Int"; g_id := 0 |}.
Definition helper_str : gdef := {| g_name := "helper"; g_generics := []; g_sig := "(x: Str) -> Str"; g_id := 1 |}.

Theorem fun_lookup_refuted :
  exists defs n e e',
    Permutation (ctx_build defs) e /\ Permutation (ctx_build defs) e' /\
    fun_lookup n [] e <> fun_lookup n [] e'.
Proof.
  exists [helper_int; helper_str], "helper", [helper_int; helper_str], [helper_str; helper_int].
  split; [vm_compute; reflexivity|]. split; [vm_compute; apply perm_swap|]. vm_compute. discriminate.
Qed.

(** a second definition with the SAME identity is dropped on insertion (first wins), so the content of the
    context is a function of the definition order alone *)
Example ctx_build_first_wins :
  ctx_build [foo_plain; {| g_name := "Foo"; g_generics := []; g_sig := ""; g_id := 7 |}] = [foo_plain].
Proof. reflexivity. Qed.

Lemma find_filter_keeps {A} (p q : A -> bool) : forall l,
  (forall x, In x l -> p x = true -> q x = true) -> find p (filter q l) = find p l.
Proof.
  induction l as [|x t IH]; intros H; cbn [filter find]; [reflexivity|].
  specialize (IH (fun y Hy => H y (or_intror Hy))). specialize (H x (or_introl eq_refl)).
  destruct (p x) eqn:P.
  - rewrite H by reflexivity. cbn [find]. now rewrite P.
  - destruct (q x); cbn [find]; now rewrite ?P.
Qed.

(** A class sees its own member of a given name, else the first one among its parents' members in the order
    they are folded in: the members that [inherit] filters out have a name that [self] has. *)
Lemma class_lookup_inherit : forall n self p,
  class_lookup n (inherit self p)
  = match class_lookup n self with Some x => Some x | None => class_lookup n p end.
Proof.
  intros n self p. unfold class_lookup, inherit. rewrite find_app_split.
  destruct (find _ self) eqn:E; [reflexivity|]. apply find_filter_keeps. intros f _ Pf.
  apply String.eqb_eq in Pf. apply forallb_forall. intros s Hs. now rewrite Pf, (find_none _ _ E s Hs).
Qed.

Lemma member_lookup_flat : forall n ps self,
  member_lookup n self ps
  = match class_lookup n self with Some x => Some x | None => class_lookup n (List.concat ps) end.
Proof.
  intros n. unfold member_lookup.
  induction ps as [|p ps IH]; intros self; cbn [inherit_all fold_left List.concat]; [now destruct (class_lookup n self)|].
  change (fold_left inherit ps (inherit self p)) with (inherit_all (inherit self p) ps).
  rewrite IH, class_lookup_inherit. unfold class_lookup. rewrite find_app_split.
  destruct (find _ self); [reflexivity|]. now destruct (find _ p).
Qed.

(** the parents' functions of [C12_member_lookup_refuted]: [class C: P1, P2] where both parents define [f],
    with different return types *)
Definition p1_f : gdef := {| g_name := "f"; g_generics := []; g_sig := "(self: P1) -> Int"; g_id := 1 |}.
Definition p2_f : gdef := {| g_name := "f"; g_generics := []; g_sig := "(self: P2) -> Str"; g_id := 2 |}.

Theorem is_temporary_perm : forall l l',
  (forall x y, In x l -> In y l -> is_temp x = is_temp y) ->
  Permutation l l' -> is_temporary l = is_temporary l'.
Proof.
  intros l l' H Hp. apply (hd_const_perm is_temp) in Hp; [|exact H].
  destruct l, l'; cbn in *; congruence.
Qed.

(** names made by [ConstrBuilder::temp_name] are singletons ([Name::from("@n")]), where the invariant is trivial *)
Corollary is_temporary_singleton : forall x l', Permutation [x] l' -> is_temporary [x] = is_temporary l'.
Proof.
  intros x l' Hp. apply is_temporary_perm; [|exact Hp].
  intros a b [<-|[]] [<-|[]]. reflexivity.
Qed.

Theorem callable_args_refuted :
  exists l l', Permutation l l' /\ callable_args l <> callable_args l'.
Proof.
  exists [tng "" [[tn "Int"]]; tng "" [[tn "Str"]]], [tng "" [[tn "Str"]]; tng "" [[tn "Int"]]].
  split; [apply perm_swap|]. vm_compute. discriminate.
Qed.

(** same set of type names (Rust's set equality: equal canonical forms, any order) *)
Definition seteq (l l' : list tname) : Prop := Permutation (map canon l) (map canon l').

Lemma perm_seteq : forall l l', Permutation l l' -> seteq l l'.
Proof. intros. now apply Permutation_map. Qed.

Lemma canon_name_of : forall x, tn_name (canon x) = tn_name x.
Proof. now intros []. Qed.
Lemma is_null_canon : forall x, is_null (canon x) = is_null x.
Proof. intros x. unfold is_null. now rewrite canon_name_of. Qed.
Lemma as_nullable_canon : forall x, canon (as_nullable x) = as_nullable (canon x).
Proof. now intros []. Qed.

Lemma set_mem_spec : forall x acc, existsb (tn_eqb x) acc = true <-> In (canon x) (map canon acc).
Proof.
  intros x acc. rewrite existsb_exists, in_map_iff.
  split; intros (y & H1 & H2); exists y; rewrite tn_eqb_spec in *; now split.
Qed.

Lemma set_add_in : forall x acc c,
  In c (map canon (set_add x acc)) <-> In c (map canon acc) \/ c = canon x.
Proof.
  intros x acc c. unfold set_add. destruct (existsb (tn_eqb x) acc) eqn:E.
  - apply set_mem_spec in E. split; [now left|]. now intros [H| ->].
  - rewrite map_app, in_app_iff. cbn [map In]. intuition.
Qed.

Lemma set_add_nodup : forall x acc, NoDup (map canon acc) -> NoDup (map canon (set_add x acc)).
Proof.
  intros x acc H. unfold set_add. destruct (existsb (tn_eqb x) acc) eqn:E; [exact H|].
  rewrite map_app. cbn [map]. eapply Permutation_NoDup; [apply Permutation_cons_append|].
  constructor; [|exact H]. rewrite <- set_mem_spec, E. discriminate.
Qed.

Lemma set_fold_in : forall l acc c,
  In c (map canon (fold_left (fun acc x => set_add x acc) l acc)) <-> In c (map canon acc) \/ In c (map canon l).
Proof.
  induction l as [|x t IH]; intros acc c; cbn [fold_left map In]; [tauto|].
  rewrite IH, set_add_in. intuition.
Qed.

Lemma set_fold_nodup : forall l acc,
  NoDup (map canon acc) -> NoDup (map canon (fold_left (fun acc x => set_add x acc) l acc)).
Proof. induction l as [|x t IH]; intros acc H; cbn [fold_left]; [exact H|]. apply IH. now apply set_add_nodup. Qed.

Lemma seteq_in : forall l l', seteq l l' -> forall c, In c (map canon l) <-> In c (map canon l').
Proof.
  intros l l' H c. split; apply Permutation_in; [exact H|now apply Permutation_sym].
Qed.

Lemma set_of_seteq : forall l l', seteq l l' -> seteq (set_of l) (set_of l').
Proof.
  intros l l' H. unfold seteq, set_of. apply NoDup_Permutation.
  - apply set_fold_nodup. constructor.
  - apply set_fold_nodup. constructor.
  - intros c. rewrite !set_fold_in. cbn [map In]. rewrite (seteq_in l l' H c). tauto.
Qed.

Lemma map_canon_filter_null : forall l,
  map canon (filter (fun n => negb (is_null n)) l) = filter (fun n => negb (is_null n)) (map canon l).
Proof.
  induction l as [|x t IH]; cbn [filter map]; [reflexivity|].
  rewrite is_null_canon. destruct (is_null x); cbn [negb map]; now rewrite IH.
Qed.

Lemma map_canon_nullable : forall l, map canon (map as_nullable l) = map as_nullable (map canon l).
Proof. intros l. rewrite !map_map. apply map_ext. apply as_nullable_canon. Qed.

Lemma existsb_is_null_canon : forall l, existsb is_null (map canon l) = existsb is_null l.
Proof. induction l as [|x t IH]; cbn [existsb map]; [reflexivity|]. now rewrite is_null_canon, IH. Qed.

Theorem name_union_seteq : forall a a' b b',
  seteq a a' -> seteq b b' -> seteq (name_union a b) (name_union a' b').
Proof.
  intros a a' b b' Ha Hb. unfold name_union.
  assert (Hs : seteq (set_of (a ++ b)) (set_of (a' ++ b'))).
  { apply set_of_seteq. unfold seteq. rewrite !map_app. now apply Permutation_app. }
  set (s := set_of (a ++ b)) in *. set (s' := set_of (a' ++ b')) in *.
  assert (E1 : existsb is_null s = existsb is_null s').
  { rewrite <- (existsb_is_null_canon s), <- (existsb_is_null_canon s'). now apply existsb_perm. }
  assert (E2 : List.length s = List.length s').
  { rewrite <- (map_length canon s), <- (map_length canon s'). now apply Permutation_length. }
  rewrite E1, E2. destruct (existsb is_null s' && Nat.ltb 1 (List.length s')); [|exact Hs].
  apply set_of_seteq. unfold seteq. rewrite !map_canon_nullable, !map_canon_filter_null.
  now apply Permutation_map, filter_perm.
Qed.

