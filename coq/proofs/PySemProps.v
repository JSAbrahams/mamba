(** [append_ret] (implicit return of a function's last expression) and [append_assign]
    (definition from an [if]/[match]/[handle] with branches) are correct for every
    statement tree whose tail positions hold expressions, [return] or [raise] ([ret_ok]; for
    [append_assign] also definitions and assignments, [assign_ok], and when the original does
    not run out of fuel) and every instantiation of the expression semantics in which [None]
    evaluates to the none value:
    executing the rewritten statement is executing the original one as an expression
    and returning / binding its value. *)
From Coq Require Import List String Bool Arith Lia.
From MambaModel Require Import model.Core model.Convert model.PySem proofs.ConvertProps.
Import ListNotations.

Section Props.
  Variables (value env exn : Type).
  Variable eeval : core -> env -> (value + exn) * env.
  Variable assign : core -> value -> env -> env.
  Variable augment : coreop -> core -> core -> env -> (value + exn) * env.
  Variable truthy : value -> bool.
  Variable vnone : value.
  Variable as_exn : value -> exn.
  Variable iter : value -> list value + exn.
  Variable pmatch : core -> value -> env -> option env.
  Variable catches : core -> exn -> bool.
  Variable bind_exn : core -> exn -> env -> env.
  Variable define : core -> env -> env.
  (** the one fact about expressions that is used: [None] evaluates to the none value *)
  Hypothesis eeval_none : forall e, eeval None_ e = (inl vnone, e).

  Notation outcome := (outcome value env exn).
  Notation voutcome := (voutcome value env exn).
  Notation exec := (exec value env exn eeval assign augment truthy vnone as_exn iter pmatch catches bind_exn define).
  Notation vexec := (vexec value env exn eeval assign augment truthy vnone as_exn iter pmatch catches bind_exn define).
  Notation seq_exec := (seq_exec value env exn).
  Notation vseq := (vseq value env exn).
  Notation pick_case := (pick_case value env exn pmatch).
  Notation vpick_case := (vpick_case value env exn pmatch).
  Notation pick_handler := (pick_handler value env exn catches bind_exn).
  Notation vpick_handler := (vpick_handler value env exn catches bind_exn).
  Notation lift_o := (lift_o value env exn).

  (** what a function call observes of the execution of its body *)
  Inductive fres := FVal (v : value) (e : env) | FExc (x : exn) (e : env) | FBrk (e : env) | FCont (e : env) | FFuel.
  Definition fres_o (o : outcome) : fres :=
    match o with
    | ONormal _ _ _ e => FVal vnone e | OReturn _ _ _ v e => FVal v e | ORaise _ _ _ x e => FExc x e
    | OBreak _ _ _ e => FBrk e | OContinue _ _ _ e => FCont e | OFuel _ _ _ => FFuel
    end.
  Definition fres_v (o : voutcome) : fres :=
    match o with
    | VNormal _ _ _ (Some v) e => FVal v e | VNormal _ _ _ None e => FVal vnone e
    | VReturn _ _ _ v e => FVal v e | VRaise _ _ _ x e => FExc x e
    | VBreak _ _ _ e => FBrk e | VContinue _ _ _ e => FCont e | VFuel _ _ _ => FFuel
    end.

  (** what a definition [def t := <statement>] observes *)
  Definition assign_of (t : core) (o : voutcome) : outcome :=
    match o with
    | VNormal _ _ _ (Some v) e => ONormal _ _ _ (assign t v e)
    | VNormal _ _ _ None e => ONormal _ _ _ e
    | VReturn _ _ _ v e => OReturn _ _ _ v e | VRaise _ _ _ x e => ORaise _ _ _ x e
    | VBreak _ _ _ e => OBreak _ _ _ e | VContinue _ _ _ e => OContinue _ _ _ e | VFuel _ _ _ => OFuel _ _ _
    end.

  (** the shapes on which the desugarings are meaningful: every tail position holds an
      expression, a [return] or a [raise] (for [append_assign]: or a definition or assignment) *)
  Section Last.
    Variable P : core -> bool.
    Fixpoint last_ok (l : list core) : bool :=
      match l with
      | [] => true
      | x :: r => match r with [] => P x | _ :: _ => last_ok r end
      end.
  End Last.

  Fixpoint tail_ok (leaf : core -> bool) (c : core) {struct c} : bool :=
    match c with
    | Block sts => last_ok (tail_ok leaf) sts
    | IfElse _ t e => tail_ok leaf t && tail_ok leaf e
    | Match _ cases => forallb (fun k => match k with Case _ b => tail_ok leaf b | _ => false end) cases
    | TryExcept _ a ex =>
        tail_ok leaf a
        && forallb (fun k => match k with Except _ b | ExceptId _ _ b => tail_ok leaf b | _ => false end) ex
    | Case _ _ | Except _ _ | ExceptId _ _ _ => false
    | other => leaf other
    end.

  Definition ret_leaf (c : core) : bool := skip_return c || negb (is_statement c).
  Definition assign_leaf_ok (c : core) : bool := skip_assign c || negb (is_statement c).
  Definition ret_ok := tail_ok ret_leaf.
  Definition assign_ok := tail_ok assign_leaf_ok.

  Lemma vexec_leaf f c e :
    is_tail c = false ->
    vexec (S f) c e =
      if is_statement c then lift_o (exec (S f) c e)
      else vbind value env exn (eeval c e) (fun w e1 => VNormal _ _ _ (Some w) e1).
  Proof. destruct c; intro H; try discriminate H; reflexivity. Qed.

  Lemma tail_ok_leaf leaf c : is_tail c = false -> tail_ok leaf c = leaf c.
  Proof. destruct c; intro H; try discriminate H; reflexivity. Qed.

  (** both desugarings are [tmap lf e0] for some leaf rewriting [lf]; one induction serves both, against
      a relation [R] between what the rewritten statement does and what the original does as an expression *)
  Section Tail.
    Variables (lf : core -> core) (e0 : list core) (lok : core -> bool) (R : outcome -> voutcome -> Prop).
    Hypothesis R_lift : forall o, R o (lift_o o).
    Hypothesis R_try : forall o v h hv, R o v -> (forall x e, R (h x e) (hv x e)) ->
      R (match o with ORaise _ _ _ x e => h x e | o' => o' end)
        (match v with VRaise _ _ _ x e => hv x e | v' => v' end).
    Hypothesis R_leaf : forall f c e,
      is_tail c = false -> lok c = true -> R (exec (S f) (lf c) e) (vexec (S f) c e).
    Hypothesis R_empty : forall f e, R (exec (S f) (Block e0) e) (vexec (S f) (Block []) e).

    Definition TailIH f := forall c e, tail_ok lok c = true -> R (exec f (tmap lf e0 c) e) (vexec f c e).

    Lemma seq_tail f sts e : TailIH f ->
      sts <> [] -> last_ok (tail_ok lok) sts = true ->
      R (seq_exec (exec f) (replace_last (tmap lf e0) sts) e) (vseq (exec f) (vexec f) sts e).
    Proof.
      intros IH. revert e. induction sts as [|s r IHr]; intros e Hne Hok; [congruence|].
      destruct r as [|s2 r2]; cbn [replace_last seq_exec vseq last_ok] in *.
      - specialize (IH s e Hok). destruct (exec f (tmap lf e0 s) e); exact IH.
      - destruct (exec f s e) eqn:He; try apply R_lift. apply IHr; [discriminate | exact Hok].
    Qed.

    Lemma pick_case_tail f w e cases : TailIH f ->
      forallb (fun k => match k with Case _ b => tail_ok lok b | _ => false end) cases = true ->
      R (pick_case (exec f) w e (map (tmap lf e0) cases)) (vpick_case (vexec f) w e cases).
    Proof.
      intros IH. induction cases as [|k r IHr]; intro Hok; [apply (R_lift (ONormal _ _ _ e))|].
      cbn [forallb] in Hok. apply andb_true_iff in Hok. destruct Hok as [Hk Hr].
      destruct k; try discriminate Hk.
      cbn [map tmap PySem.pick_case PySem.vpick_case].
      destruct (pmatch k1 w e); [apply IH; exact Hk | apply IHr; exact Hr].
    Qed.

    Lemma pick_handler_tail f x e handlers : TailIH f ->
      forallb (fun k => match k with Except _ b | ExceptId _ _ b => tail_ok lok b | _ => false end) handlers = true ->
      R (pick_handler (exec f) x e (map (tmap lf e0) handlers)) (vpick_handler (vexec f) x e handlers).
    Proof.
      intros IH. induction handlers as [|k r IHr]; intro Hok; [apply (R_lift (ORaise _ _ _ x e))|].
      cbn [forallb] in Hok. apply andb_true_iff in Hok. destruct Hok as [Hk Hr].
      destruct k; try discriminate Hk; cbn [map tmap PySem.pick_handler PySem.vpick_handler].
      - destruct (catches k2 x); [apply IH; exact Hk | apply IHr; exact Hr].
      - destruct (catches k1 x); [apply IH; exact Hk | apply IHr; exact Hr].
    Qed.

    Theorem tmap_correct : forall f, TailIH f.
    Proof.
      induction f as [|f IH]; intros c e Hok; [apply (R_lift (OFuel _ _ _))|].
      destruct (is_tail c) eqn:Hs.
      2:{ rewrite tmap_leaf by exact Hs. rewrite tail_ok_leaf in Hok by exact Hs. apply R_leaf; assumption. }
      destruct c; try discriminate Hs; try discriminate Hok; cbn [tail_ok] in Hok.
      - destruct statements as [|s r]; [apply R_empty|].
        apply (seq_tail f (s :: r) e IH); [discriminate | exact Hok].
      - apply andb_true_iff in Hok. destruct Hok as [H1 H2]. cbn [tmap PySem.exec PySem.vexec].
        destruct (eeval c1 e) as [[v|ex] e1]; [|apply (R_lift (ORaise _ _ _ ex e1))]. cbn [ebind vbind].
        destruct (truthy v); apply IH; assumption.
      - cbn [tmap PySem.exec PySem.vexec].
        destruct (eeval c e) as [[v|ex] e1]; [|apply (R_lift (ORaise _ _ _ ex e1))].
        apply pick_case_tail; [exact IH | exact Hok].
      - apply andb_true_iff in Hok. destruct Hok as [H1 H2]. cbn [tmap PySem.exec PySem.vexec].
        destruct (run_setup value env exn (exec f) setup e) as [e1| | | | |] eqn:Hsetup; try apply R_lift.
        pose proof (R_try _ _ _ _ (IH c e1 H1) (fun x e2 => pick_handler_tail f x e2 except IH H2)) as Ht.
        destruct (exec f (tmap lf e0 c) e1), (vexec f c e1); exact Ht.
    Qed.
  End Tail.

  Lemma fres_lift o : fres_o o = fres_v (lift_o o).
  Proof. destruct o; reflexivity. Qed.

  Theorem ret_correct : forall f c e,
    ret_ok c = true -> fres_o (exec f (append_ret c) e) = fres_v (vexec f c e).
  Proof.
    intros f c e. rewrite append_ret_tmap.
    apply (tmap_correct _ _ ret_leaf (fun o v => fres_o o = fres_v v)); clear f c e.
    - (* R_lift *) exact fres_lift.
    - (* R_try *) intros o v h hv H Hh.
      destruct o, v as [[w|] ? | | | | |]; cbn in H |- *; try discriminate H; try exact H. injection H as -> ->. apply Hh.
    - (* R_leaf *) intros f c e Hs Hl. rewrite (vexec_leaf f c e Hs). unfold ConvertProps.ret_leaf, ret_leaf in *.
      destruct (skip_return c) eqn:Hsk.
      + assert (Hst : is_statement c = true).
        { destruct c; try discriminate Hsk. destruct o; try discriminate Hsk; reflexivity. }
        rewrite Hst. apply fres_lift.
      + apply negb_true_iff in Hl. rewrite Hl. cbn [PySem.exec].
        destruct (eeval c e) as [[w|ex] e1]; reflexivity.
    - (* R_empty *) intros [|f] e; [reflexivity|]. cbn. rewrite eeval_none. reflexivity.
  Qed.

  Lemma assign_of_lift t o : assign_of t (lift_o o) = o.
  Proof. destruct o; reflexivity. Qed.

  Theorem assign_correct : forall f t n c i e,
    assign_ok c = true -> vexec f c e <> VFuel _ _ _ ->
    exec f (fst (append_assign t n c i)) e = assign_of t (vexec f c e).
  Proof.
    intros f t n c i e Hok. rewrite append_assign_nf. cbn [fst]. revert c e Hok.
    apply (tmap_correct _ _ assign_leaf_ok (fun o v => v <> VFuel _ _ _ -> o = assign_of t v)); clear f.
    - (* R_lift *) intros o _. symmetry. apply assign_of_lift.
    - (* R_try *) intros o v h hv H Hh Hnf. destruct v as [w e1|w e1|x e1|e1|e1|]; try (rewrite H by discriminate; destruct w; reflexivity);
        try (rewrite H by discriminate; reflexivity).
      + rewrite H by discriminate. apply Hh, Hnf.
      + congruence.
    - (* R_leaf *) intros f c e Hs Hl _. rewrite (vexec_leaf f c e Hs). unfold asg_leaf, assign_leaf_ok in *.
      destruct (skip_assign c) eqn:Hsk.
      + assert (Hst : is_statement c = true).
        { destruct c; try discriminate Hsk; try reflexivity. destruct o; try discriminate Hsk; reflexivity. }
        rewrite Hst. symmetry. apply assign_of_lift.
      + apply negb_true_iff in Hl. rewrite Hl. cbn [PySem.exec].
        destruct (eeval c e) as [[w|ex] e1]; reflexivity.
    - (* R_empty *) intros [|f] e Hnf; [contradiction Hnf|]; reflexivity.
  Qed.
End Props.
