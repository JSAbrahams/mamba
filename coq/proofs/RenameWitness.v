(** * Renamings that touch a reserved name: witnesses that [conv] is NOT equivariant there,
      and examples showing the hypotheses of the positive theorems are satisfiable *)
From Coq Require Import List String Bool.
From MambaModel Require Import model.Core gen.Names model.Convert model.Rename.
Import ListNotations.
Local Open Scope string_scope.

Definition swap (a b s : string) : string :=
  if String.eqb s a then b else if String.eqb s b then a else s.

Lemma swap_invol a b s : swap a b (swap a b s) = s.
Proof.
  unfold swap.
  destruct (String.eqb_spec s a) as [->|Na].
  - destruct (String.eqb_spec b a) as [->|Nb]; [reflexivity|]. rewrite String.eqb_refl. reflexivity.
  - destruct (String.eqb_spec s b) as [->|Nb].
    + rewrite String.eqb_refl. reflexivity.
    + destruct (String.eqb_spec s a); [contradiction|]. destruct (String.eqb_spec s b); [contradiction|]. reflexivity.
Qed.
Lemma swap_injective a b : injective (swap a b).
Proof. intros x y E. rewrite <- (swap_invol a b x), <- (swap_invol a b y), E. reflexivity. Qed.

Lemma swap_other a b s : s <> a -> s <> b -> swap a b s = s.
Proof.
  intros Na Nb. unfold swap. destruct (String.eqb_spec s a); [contradiction|].
  destruct (String.eqb_spec s b); [contradiction|]. reflexivity.
Qed.

Definition mem (s : string) (l : list string) : bool := existsb (String.eqb s) l.
Lemma mem_false s l : mem s l = false -> ~ In s l.
Proof.
  intros H Hin. unfold mem in H. assert (existsb (String.eqb s) l = true); [|congruence].
  apply existsb_exists. exists s. split; [exact Hin | apply String.eqb_refl].
Qed.

Lemma swap_fixes a b R : mem a R = false -> mem b R = false -> fixes (swap a b) R.
Proof.
  intros Ha Hb s Hs. apply swap_other; intros ->; [apply (mem_false _ _ Ha Hs) | apply (mem_false _ _ Hb Hs)].
Qed.
Lemma swap_fixes_but a b R : mem b R = false -> forall s, In s R -> s <> a -> swap a b s = s.
Proof. intros Hb s Hs Na. apply swap_other; [exact Na | intros ->; apply (mem_false _ _ Hb Hs)]. Qed.

Definition idf (s : string) : string := s.

(** the names of a tree in order (identifiers, type and function names, operator method names, string literals),
    through the constructors of definitions and calls: trees on which this list differs differ.  [pass] is listed
    because the member ["@"] of [reserved] shows only there: renamed to ["@"], the field [q_q] of class
    [Cc] in [univ] takes the key of [pass], which then disappears. *)
Fixpoint names (c : core) : list string :=
  let ns := flat_map names in
  let no (o : option core) := match o with Some x => names x | None => [] end in
  match c with
  | Id s | Str s => [s]
  | Type_ s gs => s :: ns gs
  | FunDef _ s a t b => s :: ns a ++ no t ++ names b
  | FunDefOp op a t b => funop_name op :: ns a ++ no t ++ names b
  | Import f i a => no f ++ ns i ++ ns a
  | ClassDef n p b => names n ++ ns p ++ names b
  | FunctionCall f a => names f ++ ns a
  | VarDef v t e | FunArg _ v t e => names v ++ no t ++ no e
  | Block l => ns l
  | Un _ e => names e
  | Pass => ["pass"]
  | _ => []
  end.
Definition same_names (x y : option core) : bool :=
  match x, y with
  | Some a, Some b => if list_eq_dec string_dec (names a) (names b) then true else false
  | None, None => true
  | _, _ => false
  end.
Lemma differ x y : same_names x y = false -> x <> y.
Proof.
  intros H <-. destruct x as [a|]; [|discriminate H]. cbn [same_names] in H.
  destruct (list_eq_dec string_dec (names a) (names a)); congruence.
Qed.

Definition int_ty : nm := NM [TN false "Int" []].
Definition opt_int : nm := NM [TN true "Int" []].

(** [def f(x: Int?) -> Int => x ? 1 ; def a: Int := f(None) ; class Point(def px: Int) ; print(sqrt a)] *)
Definition sample : ast :=
  A None (NBlock [
    A None (NFunDef (A None (NId "f"))
              [A None (NFunArg false (A (Some opt_int) (NId "x")) (Some opt_int) None)]
              (Some int_ty)
              (Some (A (Some int_ty) (NBin SQuestion (A (Some opt_int) (NId "x")) (A (Some int_ty) (NInt "1"))))));
    A None (NVarDef (A (Some int_ty) (NId "a")) (Some int_ty)
              (Some (A (Some int_ty) (NCall "f" [] [A None NUndefined]))));
    A None (NClass "Point" [] [A None (NVarDef (A (Some int_ty) (NId "px")) (Some int_ty) None)] [] None);
    A None (NCall "print" [] [A None (NUn SSqrt (A (Some int_ty) (NId "a")))])]).

Definition rho_ok : string -> string := swap "f" "size_of" .

Example rho_ok_good : injective rho_ok /\ fixes rho_ok reserved.
Proof. split; [apply swap_injective | apply swap_fixes; vm_compute; reflexivity]. Qed.

Example sample_renamed_differs :
  exists g, gen true sample = Some g /\ gen true (ren_ast rho_ok idf sample) = Some (ren_core rho_ok idf g)
            /\ ren_core rho_ok idf g <> g.
Proof.
  eexists. split; [vm_compute; reflexivity|]. split; [vm_compute; reflexivity|]. vm_compute. discriminate.
Qed.

(** ** [size]: the definition is renamed to [__size__], call sites are not (D14) *)
Definition size_prog : ast :=
  A None (NBlock [
    A None (NFunDef (A None (NId "size")) [] (Some int_ty) (Some (A (Some int_ty) (NInt "3"))));
    A None (NCall "print" [] [A (Some int_ty) (NCall "size" [] [])])]).

Example size_def_and_call_disagree :
  gen false size_prog =
  Some (Block [FunDef [] "__size__" [] None (Un CuReturn (Int "3"));
               FunctionCall (Type_ "print" []) [FunctionCall (Type_ "size" []) []]]).
Proof. vm_compute. reflexivity. Qed.

Lemma size_refuted :
  exists rho a,
    injective rho /\ (forall s, In s reserved -> s <> "size" -> rho s = s) /\
    gen false (ren_ast rho idf a) <> option_map (ren_core rho idf) (gen false a).
Proof.
  exists (swap "size" "count"), size_prog. split; [apply swap_injective|]. split.
  - apply swap_fixes_but. vm_compute. reflexivity.
  - apply differ. vm_compute. reflexivity.
Qed.

(** ** a user class spelled like a built-in class is emitted under the Python spelling *)
Definition list_prog : ast :=
  A None (NBlock [
    A None (NClass "Stack" [] [] [] None);
    A None (NVarDef (A None (NId "s")) None (Some (A None (NCall "Stack" [] []))))]).

Lemma builtin_spelling_refuted :
  exists rho a,
    injective rho /\ (forall s, In s reserved -> s <> "List" -> rho s = s) /\
    gen false (ren_ast rho idf a) <> option_map (ren_core rho idf) (gen false a).
Proof.
  exists (swap "List" "Stack"), list_prog. split; [apply swap_injective|]. split.
  - apply swap_fixes_but. vm_compute. reflexivity.
  - apply differ. vm_compute. reflexivity.
Qed.

(** ** a user definition named like a module the generator imports is captured (D20) *)
Definition math_prog : ast :=
  A None (NBlock [
    A None (NVarDef (A (Some int_ty) (NId "m")) None (Some (A (Some int_ty) (NInt "3"))));
    A None (NCall "print" [] [A None (NUn SSqrt (A (Some int_ty) (NInt "4")))])]).

Lemma import_capture_refuted :
  exists rho a,
    injective rho /\ (forall s, In s reserved -> s <> "math" -> rho s = s) /\
    gen false (ren_ast rho idf a) <> option_map (ren_core rho idf) (gen false a).
Proof.
  exists (swap "math" "m"), math_prog. split; [apply swap_injective|]. split.
  - apply swap_fixes_but. vm_compute. reflexivity.
  - apply differ. vm_compute. reflexivity.
Qed.

(** the capture itself: the emitted module imports [math] and then binds [math] to the user's value *)
Example no_capture_refuted :
  exists rest, gen false (ren_ast (swap "math" "m") idf math_prog)
               = Some (Block (Import None [Id "math"] [] :: VarDef (Id "math") None (Some (Int "3")) :: rest)).
Proof. eexists. vm_compute. reflexivity. Qed.

(** ** Union members: the checker hands them over in name order, so the order of the arguments of
       [Union[..]] follows the spelling of the names; renaming does not commute with re-sorting *)
Fixpoint insert_tn (t : tn) (l : list tn) : list tn :=
  match l with
  | [] => [t]
  | u :: r =>
      match t, u with
      | TN _ a _, TN _ b _ => if str_ltb a b then t :: l else u :: insert_tn t r
      end
  end.
Definition sort_tns (l : list tn) : list tn := fold_right insert_tn [] l.
(** renaming as the implementation sees it: the members of the renamed union, in name order again *)
Definition ren_nm_sorted (rho : string -> string) (n : nm) : nm :=
  match n with NM ms => NM (sort_tns (map (ren_tn rho) ms)) end.

Lemma union_order_refuted :
  exists rho n,
    injective rho /\ fixes rho reserved /\ (match n with NM ms => sort_tns ms = ms end) /\
    fst (nm_to_py (ren_nm_sorted rho n) imports0) <> ren_core rho idf (fst (nm_to_py n imports0)).
Proof.
  exists (swap "Ab" "Zb"), (NM [TN false "Ab" []; TN false "Bc" []]).
  split; [apply swap_injective|]. split; [apply swap_fixes; vm_compute; reflexivity|].
  split; [vm_compute; reflexivity|]. vm_compute. discriminate.
Qed.

(** ** Every reserved name is needed: one program on which exchanging ANY single reserved name with a
       fresh name breaks the equation (so [reserved] is exactly the set the theorem needs) *)
Definition fresh : string := "q_q".
Definition tyA : nm := NM [TN false "Aa" []].
Definition mention (s : string) : ast := A None (NId s).
Definition opdef (s : string) : ast :=
  A None (NFunDef (A None (NId s)) [A None (NFunArg false (A None (NId "self")) None None)] None (Some (A None NPass))).

Definition univ : ast :=
  A None (NBlock (
     map mention (map fst renamed_rows) ++
     map opdef (map snd dunder) ++
     [ A None (NCall "Tuple" [] []); A None (NCall "Callable" [] []); A None (NCall "Any" [] []);
       A None (NVarDef (A None (NId "u")) (Some (NM [TN false "Aa" []; TN true "Bb" []])) None);
       A None (NFunDef (A None (NId "g")) [A None (NFunArg false (A None (NId "self")) (Some tyA) None)] None None);
       A None (NFunDef (A None (NId "size")) [] None None);
       A None (NClass "Cc" [] [A None (NVarDef (A None (NId "px")) None None)] []
                 (Some (A None (NBlock [A None NPass; A None (NVarDef (A None (NId fresh)) None None)]))));
       A None (NTypeAlias "Al" [] tyA);
       A None (NTypeDef "Td" [] None (Some (A None (NBlock [A None (NFunDef (A None (NId "am")) [] None None)]))) false);
       A None (NUn SSqrt (A None (NInt "4")));
       A None (NRange (A None (NInt "0")) (A None (NInt "3")) false None);
       A None (NSlice (A None (NInt "0")) (A None (NInt "3")) false None) ])).

Example univ_converts : exists g, gen true univ = Some g.
Proof. eexists. vm_compute. reflexivity. Qed.

Theorem reserved_needed : forall r, In r reserved ->
  injective (swap r fresh) /\ (forall s, In s reserved -> s <> r -> swap r fresh s = s) /\
  gen true (ren_ast (swap r fresh) idf univ) <> option_map (ren_core (swap r fresh) idf) (gen true univ).
Proof.
  intros r Hr. split; [apply swap_injective|]. split; [apply swap_fixes_but; vm_compute; reflexivity|].
  (* one evaluation for the whole table, [gen true univ] shared *)
  assert (E : (let g := gen true univ in
               forallb (fun r => negb (same_names (gen true (ren_ast (swap r fresh) idf univ))
                                                  (option_map (ren_core (swap r fresh) idf) g))) reserved) = true)
    by (vm_compute; reflexivity).
  cbv zeta in E. rewrite forallb_forall in E. apply differ, negb_true_iff, E, Hr.
Qed.
