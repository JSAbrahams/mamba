(** * Token lists up to the positions of layout tokens (used by C14)

    [tok_eqv] asks the same span only of tokens that stand for characters of the source; the
    synthetic NL / Indent / Dedent / Eof may sit elsewhere.  Also the facts about line breaks
    and the doc-string pass that the trivia proofs share ([eol_loop], [flag_inv],
    [docstring_pass_nonstr]). *)
From Coq Require Import List Ascii ZArith Bool Lia Arith.
From MambaModel Require Import model.LexTok gen.LexTables model.Lex proofs.LexProps model.Trivia
  proofs.TriviaFuel proofs.TriviaScan.
Import ListNotations.
Local Open Scope Z_scope.

Definition tok_eqv (a b : lex) : Prop :=
  ltok a = ltok b /\ lnested a = lnested b /\ (synthetic (ltok a) = false -> a = b).
Definition tl_eqv (x y : tl) : Prop := tok_eqv (top x) (top y) /\ inner x = inner y.

Lemma tok_eqv_refl a : tok_eqv a a.
Proof. repeat split. Qed.
Lemma tl_eqv_refl x : tl_eqv x x.
Proof. split; [apply tok_eqv_refl | reflexivity]. Qed.
Lemma Forall2_refl {A} (R : A -> A -> Prop) : (forall x, R x x) -> forall l, Forall2 R l l.
Proof. intros H. induction l; constructor; auto. Qed.
Lemma tls_eqv_refl l : Forall2 tl_eqv l l.
Proof. apply Forall2_refl, tl_eqv_refl. Qed.

Definition st_eqv (a b : state) : Prop :=
  Forall2 tok_eqv (newlines a) (newlines b) /\ cur_indent a = cur_indent b
  /\ line_indent a = line_indent b /\ token_this_line a = token_this_line b /\ pos a = pos b.

Lemma st_eqv_refl a : st_eqv a a.
Proof. repeat split. apply Forall2_refl, tok_eqv_refl. Qed.

Definition same_indent (a b : state) : Prop := cur_indent a = cur_indent b.

Lemma step_sp d r st : step d c_sp r st = Next r (state_space st) [].
Proof. unfold step. rewrite scan_sp. reflexivity. Qed.

Lemma lex_from_nl st s : lex_from st (c_nl :: s) = lex_from (state_newline st) s.
Proof. unfold lex_from. cbn [length]. rewrite tok_loop_step, step_nl. reflexivity. Qed.
Lemma lex_from_crnl st s : lex_from st (c_cr :: c_nl :: s) = lex_from (state_newline st) s.
Proof.
  unfold lex_from at 1. cbn [length]. rewrite tok_loop_step, step_crnl.
  apply (loop_fuel (S (S (length s)))). lia.
Qed.
Lemma lex_from_sp st s : lex_from st (c_sp :: s) = lex_from (state_space st) s.
Proof. unfold lex_from. cbn [length]. rewrite tok_loop_step, step_sp. reflexivity. Qed.

Lemma lex_from_step c r st :
  lex_from st (c :: r) =
  match step (direct (S (length r))) c r st with
  | Halt e => inl (inr e)
  | OOF => inr tt
  | Next rest st' out => with_acc out (lex_from st' rest)
  end.
Proof.
  unfold lex_from at 1. cbn [length]. rewrite tok_loop_step.
  destruct (step (direct (S (length r))) c r st) as [e| |rest st' out] eqn:Hs; try reflexivity.
  apply step_next_len in Hs. apply lex_from_fuel. lia.
Qed.

Lemma eol_loop R :
  hd_eol R = true ->
  R = []
  \/ (exists R', forall st, lex_from st R = lex_from (state_newline st) R')
  \/ (forall st, lex_from st R = inl (inr (pos st, ErrCR))).
Proof.
  destruct R as [|c R]; [left; reflexivity|]. cbn [hd_eol]. unfold is_eolc. intros H. right.
  apply orb_prop in H as [H|H]; apply Ascii.eqb_eq in H; subst c.
  - left. exists R. intros. apply lex_from_nl.
  - destruct R as [|x R].
    + right. intros. unfold lex_from. rewrite tok_loop_step. unfold step. rewrite scan_cr_nil. reflexivity.
    + destruct (Ascii.eqb_spec c_nl x) as [<-|Hx].
      * left. exists R. intros. apply lex_from_crnl.
      * right. intros. unfold lex_from. rewrite tok_loop_step. unfold step.
        rewrite (scan_cr_other x R) by (apply Ascii.eqb_neq, Hx). reflexivity.
Qed.

Definition is_str (t : token) : bool := match t with MStr _ => true | _ => false end.
Lemma is_str_not_synth t : is_str t = true -> synthetic t = false.
Proof. destruct t; cbn; easy. Qed.

Lemma doc_get_nonstr f m b :
  (exists l, (f = Some l \/ m = Some l \/ b = Some l) /\ is_str (ltok l) = false) -> doc_get f m b = None.
Proof.
  intros (l & Hl & Hs). destruct (doc_get f m b) as [d|] eqn:Hg; [|reflexivity].
  apply doc_get_some in Hg as (lf & lm & lb & fs & ds & bs & -> & -> & -> & Hf & Hm & Hb & _).
  destruct Hl as [Hl | [Hl | Hl]]; inversion Hl; subst; rewrite ?Hf, ?Hm, ?Hb in Hs; discriminate Hs.
Qed.

Lemma doc_get_f_nonstr lf m b : is_str (ltok lf) = false -> doc_get (Some lf) m b = None.
Proof. intros H. apply doc_get_nonstr. exists lf. auto. Qed.
Lemma doc_get_m_nonstr f lm b : is_str (ltok lm) = false -> doc_get f (Some lm) b = None.
Proof. intros H. apply doc_get_nonstr. exists lm. auto. Qed.
Lemma doc_get_b_nonstr f m lb : is_str (ltok lb) = false -> doc_get f m (Some lb) = None.
Proof. intros H. apply doc_get_nonstr. exists lb. auto. Qed.

Lemma doc_get_none_l m b : doc_get None m b = None.
Proof. reflexivity. Qed.
Lemma doc_get_none_m f b : doc_get f None b = None.
Proof. destruct f; reflexivity. Qed.
Lemma doc_get_none_b f m : doc_get f m None = None.
Proof. destruct f, m; reflexivity. Qed.

Lemma doc_pass_sep : forall a m b x rest,
  is_str (ltok (top x)) = false ->
  doc_pass None m b (a ++ x :: rest) = doc_pass None m b a ++ doc_pass None None (Some x) rest.
Proof.
  induction a as [|l a IH]; intros m b x rest Hx.
  - change ([] ++ x :: rest) with (x :: rest).
    assert (E : doc_get (otop m) (otop b) (otop (Some x)) = None) by (apply doc_get_b_nonstr; exact Hx).
    destruct rest as [|y rest].
    + cbn [doc_pass]. rewrite E. destruct m, b; reflexivity.
    + assert (E2 : doc_get (otop b) (otop (Some x)) (otop (Some y)) = None) by (apply doc_get_m_nonstr; exact Hx).
      cbn [doc_pass]. rewrite E, E2.
      destruct m as [xm|], b as [xb|]; reflexivity.
  - change ((l :: a) ++ x :: rest) with (l :: a ++ x :: rest). cbn [doc_pass].
    destruct (doc_get (otop m) (otop b) (otop (Some l))) as [d|].
    + cbn [app]. f_equal. apply IH, Hx.
    + destruct m as [xm|]; cbn [app]; [f_equal|]; apply IH, Hx.
Qed.

Lemma docstring_pass_nonstr a x v :
  is_str (ltok (top x)) = false ->
  docstring_pass (a ++ x :: v) = docstring_pass a ++ x :: docstring_pass v.
Proof.
  intros Hx. unfold docstring_pass. rewrite (doc_pass_sep a None None x v Hx). f_equal.
  destruct v as [|z v]; [reflexivity|]. cbn [doc_pass otop]. rewrite doc_get_none_l.
  destruct v as [|w v]; [reflexivity|]. cbn [doc_pass otop].
  rewrite (doc_get_f_nonstr (top x) (Some (top z)) (Some (top w)) Hx), doc_get_none_l. reflexivity.
Qed.

Definition hd_nonstr (v : list tl) : Prop :=
  match v with [] => True | x :: _ => is_str (ltok (top x)) = false end.

Lemma docstring_pass_cut a v :
  hd_nonstr v -> docstring_pass (a ++ v) = docstring_pass a ++ docstring_pass v.
Proof.
  destruct v as [|x v]; intros H; [rewrite app_nil_r; symmetry; apply app_nil_r|].
  rewrite (docstring_pass_nonstr a x v H). f_equal. symmetry. apply (docstring_pass_nonstr [] x v H).
Qed.

Definition raw_of (x : state * list tl) : list tl :=
  let ts := snd x ++ map tl0 (flush_indents (fst x)) in
  ts ++ [tl0 (mk_lex (last_end ts) MEof)].

Definition raw_tls (s : str) : option (list tl) :=
  match tok_loop (run_fuel s) s state0 [] with inl (inl x) => Some (raw_of x) | _ => None end.

Lemma run_tls_raw s :
  run_tls s = match raw_tls s with Some l => Some (docstring_pass l) | None => None end.
Proof.
  unfold run_tls, raw_tls, raw_of.
  destruct (tok_loop (run_fuel s) s state0 []) as [[[st acc]|?]|?]; reflexivity.
Qed.

Definition tail_of (p : cpos) (x : state * list tl) : list tl :=
  snd x ++ map tl0 (flush_indents (fst x)) ++ [tl0 (mk_lex p MEof)].

Lemma raw_of_tail st acc out :
  exists p, raw_of (st, acc ++ out) = acc ++ tail_of p (st, out).
Proof. eexists. unfold raw_of, tail_of. cbn [fst snd]. rewrite <- !app_assoc. reflexivity. Qed.

Lemma tail_head_nonstr p st out :
  match out with [] => True | x :: _ => ltok (top x) = MNL end -> hd_nonstr (tail_of p (st, out)).
Proof.
  intros Ho. unfold tail_of. cbn [fst snd]. destruct out as [|x out]; [|cbn; rewrite Ho; reflexivity].
  pose proof (flush_dedents st) as Hf. destruct (flush_indents st) as [|l fl]; cbn [app map]; [reflexivity|].
  inversion Hf; subst. cbn. rewrite H1. reflexivity.
Qed.

Definition opt_rel {A} (R : A -> A -> Prop) (x y : option A) : Prop :=
  match x, y with Some a, Some b => R a b | None, None => True | _, _ => False end.

Lemma opt_rel_impl {A} (R R' : A -> A -> Prop) x y :
  (forall a b, R a b -> R' a b) -> opt_rel R x y -> opt_rel R' x y.
Proof. intros H. destruct x, y; cbn; auto. Qed.

Definition flag_inv (st : state) : Prop :=
  token_this_line st = true -> newlines st = [] /\ line_indent st = cur_indent st.

Lemma flag_inv_loop fuel s acc st' acc' :
  tok_loop fuel s state0 acc = inl (inl (st', acc')) -> flag_inv st'.
Proof.
  apply (loop_inv flag_inv); unfold flag_inv; cbn.
  - discriminate.
  - intros st H F. destruct (H F) as [A B]. rewrite F. split; [exact A | lia].
  - intros st t _ _. split; reflexivity.
  - discriminate.
Qed.

Definition nl_like (l : lex) : Prop := ltok l = MNL /\ lnested l = false.
Definition nl_inv (st : state) : Prop := Forall nl_like (newlines st).

Lemma nl_inv_loop fuel s acc st' acc' :
  tok_loop fuel s state0 acc = inl (inl (st', acc')) -> nl_inv st'.
Proof.
  apply (loop_inv nl_inv); unfold nl_inv; cbn; [| auto | constructor | constructor].
  intros st H. apply Forall_app. split; [exact H | constructor; [split; reflexivity | constructor]].
Qed.

Lemma nl_inv_nls_ok st : nl_inv st -> nls_ok st.
Proof. apply Forall_impl. intros l H. apply H. Qed.

Lemma rev_nonempty {A} (l : list A) : l <> [] -> exists x r, rev l = x :: r.
Proof.
  intros H. destruct (rev l) as [|x r] eqn:E; [|eauto].
  exfalso. apply H. apply (f_equal (@rev _)) in E. rewrite rev_involutive in E. exact E.
Qed.

Lemma emit_layout_head st :
  newlines st <> [] -> nls_ok st -> exists l ls, emit_layout st = l :: ls /\ ltok l = MNL.
Proof.
  intros Hne Hok. unfold emit_layout. destruct (rev_nonempty _ Hne) as (nl & r & Hr). rewrite Hr.
  eexists. eexists. split; [reflexivity|].
  unfold nls_ok in Hok. apply Forall_rev in Hok. rewrite Hr in Hok. inversion Hok; assumption.
Qed.

Lemma first_out_nl fuel s st st' out :
  newlines st <> [] -> nls_ok st -> tok_loop fuel s st [] = inl (inl (st', out)) ->
  match out with [] => True | x :: _ => ltok (top x) = MNL end.
Proof.
  intros Hne Hok.
  apply (tok_loop_ind
           (fun _ _ st acc => (acc = [] /\ newlines st <> [] /\ nls_ok st)
                              \/ exists x o, acc = x :: o /\ ltok (top x) = MNL)
           (fun _ acc => match acc with [] => True | x :: _ => ltok (top x) = MNL end)); [| |auto].
  - intros _ st0 acc [(-> & _) | (x & o & -> & Hx)]; [exact I | exact Hx].
  - clear. intros fuel c r st acc rest st1 out [(-> & Hne & Hok) | (x & o & -> & Hx)] H;
      [|right; exists x, (o ++ out); split; [reflexivity | exact Hx]].
    apply step_cases in H as [(_ & -> & ->) | [(_ & -> & ->) | (t & inn & _ & _ & -> & ->)]].
    + left. split; [reflexivity|]. split; [exact Hne | apply space_nls_ok, Hok].
    + left. split; [reflexivity|]. split; [|apply newline_nls_ok, Hok].
      unfold state_newline. cbn. intros F. apply app_eq_nil in F as [_ F]. discriminate F.
    + right. destruct (emit_layout_head st Hne Hok) as (l & ls & -> & Hl). cbn [app map].
      eexists. eexists. split; [reflexivity | exact Hl].
Qed.
