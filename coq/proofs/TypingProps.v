(** * The algorithmic check of model/Typing.v against the declarative relation

    The generators emit one obligation per typed use; [holds l]: the repaired rules discharge all of [l].  Each
    generator is related to its declarative judgement in both directions (completeness by induction on the
    derivation, soundness by induction on the syntax), which gives [check_iff].  The implementation's rules agree
    with the repaired ones outside the known classes ([outside_known]); locality ([conforms_local]) and null flow
    ([null_flow]) are read off the declarative side. *)
From Coq Require Import List String Bool ZArith Arith Lia.
From MambaModel Require Import model.Types model.TypingSig model.Typing proofs.TypesProps.
Import ListNotations.
Local Open Scope string_scope.
Local Open Scope list_scope.

(** reads [match x with Some .. => .. | None => None end = Some r] backwards: [x] is a [Some], and so on inwards *)
Ltac inv H :=
  repeat match type of H with
         | match ?x with _ => _ end = Some _ =>
             let E := fresh "E" in destruct x eqn:E; try discriminate H; try inv E
         | Some _ = Some _ => inversion H; subst; clear H
         | None = Some _ => discriminate H
         end.

Section Tables.
  Variable cx : ctx.
  Variable sigs : list msig.
  Variable funs : list fsig.
  Variable fields : list (string * string * ty).

  Notation sup := (sup cx).
  Notation sub := (sub cx).
  Notation dis := (discharge cx noq).
  Notation gen_e := (gen_e cx sigs funs fields).
  Notation gen_es := (gen_es cx sigs funs fields).
  Notation gen_strs := (gen_strs cx sigs funs fields).
  Notation gen_s := (gen_s cx sigs funs fields).
  Notation gen_b := (gen_b cx sigs funs fields).
  Notation call_method := (call_method cx sigs).
  Notation has_type := (has_type cx sigs funs fields).
  Notation has_types := (has_types cx sigs funs fields).
  Notation strs_ok := (strs_ok cx sigs funs fields).
  Notation meth_ok := (meth_ok cx sigs).
  Notation args_ok := (args_ok cx).

  Lemma sup_sub T t : sup T t = true <-> sub T t.
  Proof.
    unfold Typing.sup, Typing.sub. destruct (super cx T [t]) as [[|]| |]; split; intros H; try discriminate; auto.
  Qed.

  Lemma dis_sub k T t lo : dis (OSub k T t lo) = sup T t.
  Proof. destruct k, lo; reflexivity. Qed.

  (** rewriting with the [holds] lemmas turns [holds l] into the conjunction of the declarative side conditions *)
  Definition holds (l : list oblig) : Prop := forallb dis l = true.

  Lemma holds_nil : holds [] <-> True.
  Proof. unfold holds. cbn. tauto. Qed.
  Lemma holds_app a b : holds (a ++ b) <-> holds a /\ holds b.
  Proof. unfold holds. rewrite forallb_app. apply andb_true_iff. Qed.
  Lemma holds_cons o l : holds (o :: l) <-> dis o = true /\ holds l.
  Proof. apply andb_true_iff. Qed.
  Lemma holds_sub k T t lo : dis (OSub k T t lo) = true <-> sub T t.
  Proof. rewrite dis_sub. apply sup_sub. Qed.
  Lemma holds_field t lo : dis (OFieldRecv t lo) = true <-> nonnull t = true.
  Proof. destruct lo; reflexivity. Qed.
  Lemma holds_range p t lo : dis (ORange p t lo) = true <-> sub [tInt] t.
  Proof. destruct lo, p; apply sup_sub. Qed.
  Lemma holds_join b : dis (OJoin b) = true <-> b = true.
  Proof. reflexivity. Qed.
  Lemma holds_falloff b : dis (OFallOff b) = true <-> b = true.
  Proof. reflexivity. Qed.
  Hint Rewrite holds_app holds_cons holds_nil holds_sub holds_field holds_range holds_join holds_falloff : holds.
  (** rewrites [H] with the [holds] lemmas in one top-down pass: [holds l] becomes the conjunction of its side
      conditions (on the long obligation lists of the soundness proofs [autorewrite] is much slower) *)
  Ltac norm H := try (rewrite_strat (topdown (hints holds)) in H).

  Lemma zip_sound k0 k ps : forall acts l,
    zip_params k0 k ps acts = Some l -> holds l -> args_ok ps (map fst acts).
  Proof.
    revert k0. induction ps as [|p ps IH]; intros k0 [|a acts] l H D; cbn in H; inv H; norm D.
    - constructor.
    - apply AO_default; [assumption | exact (IH k [] l H D)].
    - eapply AO_both; [eassumption | apply D | eapply IH; [eassumption | apply D]].
  Qed.

  Lemma zip_complete k0 k ps : forall acts,
    args_ok ps (map fst acts) -> exists l, zip_params k0 k ps acts = Some l /\ holds l.
  Proof.
    revert k0. induction ps as [|p ps IH]; intros k0 acts H.
    - inversion H. destruct acts; [|discriminate]. exists []. split; reflexivity.
    - destruct acts as [|a acts]; cbn [map] in H;
        inversion H as [| p' ps' T t ts ET HS HA | p' ps' HD HA]; subst.
      + cbn. rewrite HD. exact (IH k [] HA).
      + destruct (IH k acts HA) as [l [E D]]. exists (OSub k0 T (fst a) (snd a) :: l). split.
        * cbn. rewrite ET, E. reflexivity.
        * autorewrite with holds. auto.
  Qed.

  Lemma call_sound t lo m acts rt l :
    call_method (t, lo) m acts = Some (rt, l) -> holds l -> forall ts, ts = map fst acts -> meth_ok t m ts rt.
  Proof.
    unfold Typing.call_method. intros H D ts ->. inv H. eexists. split; [eassumption|]. split; [|reflexivity].
    eapply (zip_sound _ _ _ ((t, lo) :: acts)); eassumption.
  Qed.

  Lemma call_complete recv m acts t :
    meth_ok (fst recv) m (map fst acts) t -> exists l, call_method recv m acts = Some (t, l) /\ holds l.
  Proof.
    intros [sg [EF [HA Ht]]]. unfold Typing.call_method. rewrite EF.
    destruct (zip_complete KRecv KArg (sg_params sg) (recv :: acts) HA) as [l [EZ D]].
    exists l. rewrite EZ, Ht. split; [reflexivity|exact D].
  Qed.

  Lemma args_ok_spec ps ts :
    args_ok ps ts <->
    List.length ts <= List.length ps /\
    (forall i p t, nth_error ps i = Some p -> nth_error ts i = Some t -> exists T, sp_ty p = Some T /\ sub T t) /\
    (forall i p, nth_error ps i = Some p -> List.length ts <= i -> sp_default p = true).
  Proof.
    split.
    - induction 1 as [| p ps T t ts ET HS HA IH | p ps HD HA IH].
      + split; [apply le_n|]. split; intros i p; destruct i; discriminate.
      + destruct IH as [IL [IA ID]]. split; [cbn; lia|]. split.
        * intros [|i] p0 t0 Hp Ht; cbn in Hp, Ht.
          -- inversion Hp; inversion Ht; subst. eauto.
          -- eapply IA; eassumption.
        * intros [|i] p0 Hp Hl; cbn in Hp, Hl; [lia|]. eapply ID; [eassumption|lia].
      + destruct IH as [IL [IA ID]]. split; [cbn; lia|]. split.
        * intros i p0 t0 _ Ht. destruct i; discriminate.
        * intros [|i] p0 Hp Hl; cbn in Hp.
          -- inversion Hp; subst. exact HD.
          -- eapply ID; [eassumption|cbn; lia].
    - revert ts. induction ps as [|p ps IH]; intros ts [HL [HA HD]].
      + destruct ts; [constructor|cbn in HL; lia].
      + destruct ts as [|t ts].
        * apply AO_default; [exact (HD 0 p eq_refl (le_n 0))|]. apply IH. split; [cbn; lia|]. split.
          -- intros i p0 t0 _ Ht. destruct i; discriminate.
          -- intros i p0 Hp _. exact (HD (S i) p0 Hp (Nat.le_0_l _)).
        * destruct (HA 0 p t eq_refl eq_refl) as [T [ET HS]]. eapply AO_both; [exact ET|exact HS|].
          apply IH. split; [cbn in HL; lia|]. split.
          -- intros i p0 t0 Hp Ht. exact (HA (S i) p0 t0 Hp Ht).
          -- intros i p0 Hp Hl. apply (HD (S i) p0 Hp). cbn. lia.
  Qed.

  Lemma lookup_erase env x :
    dlookup (erase env) x = option_map (fun v => {| d_ty := v_ty v; d_mut := v_mut v |}) (lookup env x).
  Proof.
    induction env as [|[y v] r IH]; [reflexivity|]. cbn. destruct (String.eqb y x); [reflexivity|exact IH].
  Qed.

  (** model/Typing.v repeats the list generators [gen_es], [gen_strs], [gen_marms], [gen_harms] as local [fix]es
      inside [gen_e] and [gen_s]; the equations below put the named generators in their place.  Each reduces, by
      this congruence, to "the local [fix] and the named generator agree", an induction on the list. *)
  Lemma match_some {A B} (x y : option A) (k : A -> option B) :
    x = y -> match x with Some a => k a | None => None end = match y with Some a => k a | None => None end.
  Proof. intros ->. reflexivity. Qed.

  Lemma gen_e_call env f args :
    gen_e env (ECall f args) =
    match find_fun funs f, gen_es env args with
    | Some fs, Some (acts, oa) =>
        match zip_params KFunArg KFunArg (fs_params fs) acts with
        | Some o => Some (single (fs_ret fs), false, oa ++ o)
        | None => None
        end
    | _, _ => None
    end.
  Proof.
    cbn [Typing.gen_e]. destruct (find_fun funs f); [|reflexivity].
    apply match_some. induction args as [|a r IH]; [reflexivity|]. cbn [Typing.gen_es]. rewrite <- IH. reflexivity.
  Qed.

  Lemma gen_e_meth env ob m args :
    gen_e env (EMeth ob m args) =
    match gen_e env ob, gen_es env args with
    | Some (tb, lb, ob'), Some (acts, oa) =>
        match call_method (tb, lb) m acts with
        | Some (t, o) => Some (t, false, ob' ++ oa ++ o)
        | None => None
        end
    | _, _ => None
    end.
  Proof.
    cbn [Typing.gen_e]. destruct (gen_e env ob) as [[[tb lb] ob']|]; [|reflexivity].
    apply match_some. induction args as [|a r IH]; [reflexivity|]. cbn [Typing.gen_es]. rewrite <- IH. reflexivity.
  Qed.

  Lemma gen_e_fmt env es :
    gen_e env (EFmt es) = match gen_strs env es with Some o => Some (tStr, false, o) | None => None end.
  Proof.
    cbn [Typing.gen_e].
    apply match_some. induction es as [|a r IH]; [reflexivity|]. cbn [Typing.gen_strs]. rewrite <- IH. reflexivity.
  Qed.

  Section ExprInd.
    Variable P : expr -> Prop.
    Hypothesis HInt : forall z, P (EInt z).
    Hypothesis HFloat : forall s, P (EFloat s).
    Hypothesis HStr : forall s, P (EStr s).
    Hypothesis HBool : forall b, P (EBool b).
    Hypothesis HNone : P ENone.
    Hypothesis HVar : forall x, P (EVar x).
    Hypothesis HOp : forall m l r, P l -> P r -> P (EOp m l r).
    Hypothesis HNot : forall a, P a -> P (ENot a).
    Hypothesis HBoolOp : forall l r, P l -> P r -> P (EBoolOp l r).
    Hypothesis HCall : forall f args, Forall P args -> P (ECall f args).
    Hypothesis HMeth : forall o m args, P o -> Forall P args -> P (EMeth o m args).
    Hypothesis HField : forall o f, P o -> P (EField o f).
    Hypothesis HQuest : forall x d, P x -> P d -> P (EQuest x d).
    Hypothesis HIf : forall c t e, P c -> P t -> P e -> P (EIf c t e).
    Hypothesis HFmt : forall es, Forall P es -> P (EFmt es).

    Fixpoint expr_ind' (e : expr) : P e :=
      let fix go (l : list expr) : Forall P l :=
        match l with
        | [] => Forall_nil P
        | x :: r => Forall_cons x (expr_ind' x) (go r)
        end in
      match e with
      | EInt z => HInt z
      | EFloat s => HFloat s
      | EStr s => HStr s
      | EBool b => HBool b
      | ENone => HNone
      | EVar x => HVar x
      | EOp m l r => HOp m l r (expr_ind' l) (expr_ind' r)
      | ENot a => HNot a (expr_ind' a)
      | EBoolOp l r => HBoolOp l r (expr_ind' l) (expr_ind' r)
      | ECall f args => HCall f args (go args)
      | EMeth o m args => HMeth o m args (expr_ind' o) (go args)
      | EField o f => HField o f (expr_ind' o)
      | EQuest x d => HQuest x d (expr_ind' x) (expr_ind' d)
      | EIf c t e => HIf c t e (expr_ind' c) (expr_ind' t) (expr_ind' e)
      | EFmt es => HFmt es (go es)
      end.
  End ExprInd.

  Scheme has_type_mind := Minimality for Typing.has_type Sort Prop
    with has_types_mind := Minimality for Typing.has_types Sort Prop
    with strs_ok_mind := Minimality for Typing.strs_ok Sort Prop.
  Combined Scheme has_type_mutind from has_type_mind, has_types_mind, strs_ok_mind.

  Definition g_ok (r : option (list oblig)) : Prop := exists l, r = Some l /\ holds l.
  Definition e_ok (env : tenv) (e : expr) (t : ty) : Prop :=
    exists lo l, gen_e env e = Some (t, lo, l) /\ holds l.
  Definition es_ok (env : tenv) (es : list expr) (ts : list ty) : Prop :=
    exists acts l, gen_es env es = Some (acts, l) /\ map fst acts = ts /\ holds l.

  (** closes [exists .., Some _ = Some _ /\ .. /\ holds _] once the generator equations have been rewritten *)
  Ltac close := repeat eexists; try reflexivity; try (rewrite_strat (topdown (hints holds))); repeat split; auto.

  (** in each case the induction hypotheses are the equations that reduce the generator *)
  Lemma complete_all env :
    (forall e t, has_type (erase env) e t -> e_ok env e t) /\
    (forall es ts, has_types (erase env) es ts -> es_ok env es ts) /\
    (forall es, strs_ok (erase env) es -> g_ok (gen_strs env es)).
  Proof.
    apply has_type_mutind; unfold e_ok, es_ok, g_ok.
    1-5: close.
    - (* Var *) intros x v H. rewrite lookup_erase in H. cbn [Typing.gen_e].
      destruct (lookup env x) as [w|]; [|discriminate]. injection H as <-. close.
    - (* Op *) intros m l r tl tr t _ [ll [ol [E1 D1]]] _ [lr [orr [E2 D2]]] HM.
      destruct (call_complete (tl, ll) m [(tr, lr)] t HM) as [o [E3 D3]].
      cbn [Typing.gen_e]. rewrite E1, E2, E3. close.
    - (* Not *) intros a ta t _ [la [oa [E1 D1]]] HM.
      destruct (call_complete (ta, la) "__bool__" [] t HM) as [o [E2 D2]].
      cbn [Typing.gen_e]. rewrite E1, E2. close.
    - (* BoolOp *) intros l r tl tr t1 t2 _ [ll [ol [E1 D1]]] _ [lr [orr [E2 D2]]] HM1 HM2.
      destruct (call_complete (tl, ll) "__bool__" [] t1 HM1) as [o1 [E3 D3]].
      destruct (call_complete (tr, lr) "__bool__" [] t2 HM2) as [o2 [E4 D4]].
      cbn [Typing.gen_e]. rewrite E1, E2, E3, E4. close.
    - (* Call *) intros f args fs ts EF _ [acts [oa [E1 [<- D1]]]] HA.
      destruct (zip_complete KFunArg KFunArg (fs_params fs) acts HA) as [o [E2 D2]].
      rewrite gen_e_call, EF, E1, E2. close.
    - (* Meth *) intros ob m args tb ts t _ [lb [ob' [E0 D0]]] _ [acts [oa [E1 [<- D1]]]] HM.
      destruct (call_complete (tb, lb) m acts t HM) as [o [E2 D2]].
      rewrite gen_e_meth, E0, E1, E2. close.
    - (* Field *) intros ob f tb ft _ [lb [ob' [E0 D0]]] HN EF. cbn [Typing.gen_e]. rewrite E0, EF. close.
    - (* Quest *) intros x d tx td t _ [lx [ox [E1 D1]]] _ [ld [od [E2 D2]]] HS EJ.
      cbn [Typing.gen_e]. rewrite E1, E2, EJ. close.
    - (* If *) intros c t e tc t1 t2 tb tj _ [lc [oc [E1 D1]]] _ [l1 [o1 [E2 D2]]] _ [l2 [o2 [E3 D3]]] HM EJ.
      destruct (call_complete (tc, lc) "__bool__" [] tb HM) as [o [E4 D4]].
      cbn [Typing.gen_e]. rewrite E1, E2, E3, E4, EJ. close.
    - (* Fmt *) intros es _ [l [E D]]. rewrite gen_e_fmt, E. close.
    - close.
    - intros e es t ts _ [lo [o [E1 D1]]] _ [acts [os [E2 [<- D2]]]]. cbn [Typing.gen_es]. rewrite E1, E2. close.
    - close.
    - intros e es t ts _ [lo [o [E1 D1]]] HM _ [os [E2 D2]].
      destruct (call_complete (t, lo) "__str__" [] ts HM) as [o' [E3 D3]].
      cbn [Typing.gen_strs]. rewrite E1, E2, E3. close.
  Qed.

  Definition sound_at (env : tenv) (e : expr) : Prop :=
    forall t lo l, gen_e env e = Some (t, lo, l) -> holds l -> has_type (erase env) e t.

  Lemma es_sound env es : Forall (sound_at env) es ->
    forall acts l, gen_es env es = Some (acts, l) -> holds l -> has_types (erase env) es (map fst acts).
  Proof.
    induction 1 as [|e es He _ IH]; intros acts l E D; cbn [Typing.gen_es] in E; inv E; norm D;
      constructor; intuition eauto.
  Qed.

  Lemma ss_sound env es : Forall (sound_at env) es ->
    forall l, gen_strs env es = Some l -> holds l -> strs_ok (erase env) es.
  Proof.
    induction 1 as [|e es He _ IH]; intros l E D; cbn [Typing.gen_strs] in E; inv E; norm D;
      econstructor; intuition eauto using call_sound.
  Qed.

  (** after [inv] and [norm] the hypotheses are the premises of the one rule for the construct *)
  Lemma sound_e : forall e env t lo l, gen_e env e = Some (t, lo, l) -> holds l -> has_type (erase env) e t.
  Proof.
    change (forall e env, sound_at env e).
    induction e using expr_ind'; intros env t0 lo0 l0 E D;
      try rewrite gen_e_call in E; try rewrite gen_e_meth in E; try rewrite gen_e_fmt in E;
      cbn [Typing.gen_e] in E; inv E; norm D;
      try match goal with H : Forall _ _ |- _ =>
            apply (Forall_impl (sound_at env) (fun a (Ha : forall env, sound_at env a) => Ha env)) in H end;
      unfold sound_at in *;
      try (decompose [and] D; econstructor; eauto using call_sound, zip_sound, es_sound, ss_sound; fail).
    - (* EVar: the rule speaks of the erased environment *)
      replace (v_ty v) with (d_ty {| d_ty := v_ty v; d_mut := v_mut v |}) by reflexivity.
      constructor. rewrite lookup_erase, E0. reflexivity.
    - (* EQuest whose alternatives have no join: the obligation [OJoin false] does not hold *)
      intuition discriminate.
  Qed.

  Theorem gen_e_iff env e t : has_type (erase env) e t <-> e_ok env e t.
  Proof.
    split.
    - exact (proj1 (complete_all env) e t).
    - intros [lo [l [E D]]]. exact (sound_e e env t lo l E D).
  Qed.

  Lemma sound_es env es acts l : gen_es env es = Some (acts, l) -> holds l -> has_types (erase env) es (map fst acts).
  Proof. apply es_sound, Forall_forall. intros e _. exact (sound_e e env). Qed.

  Lemma gen_es_iff env es ts : has_types (erase env) es ts <-> es_ok env es ts.
  Proof.
    split.
    - exact (proj1 (proj2 (complete_all env)) es ts).
    - intros [acts [l [E [<- D]]]]. exact (sound_es env es acts l E D).
  Qed.

  Lemma has_type_fun env e t1 t2 : has_type (erase env) e t1 -> has_type (erase env) e t2 -> t1 = t2.
  Proof.
    intros H1 H2. apply gen_e_iff in H1 as [lo1 [l1 [E1 _]]]. apply gen_e_iff in H2 as [lo2 [l2 [E2 _]]].
    rewrite E1 in E2. inversion E2. reflexivity.
  Qed.

  Notation gen_use := (gen_use cx sigs funs fields).
  Notation gen_marms := (gen_marms cx sigs funs fields).
  Notation gen_harm := (gen_harm cx sigs funs fields).
  Notation gen_harms := (gen_harms cx sigs funs fields).
  Notation stmt_ok := (stmt_ok cx sigs funs fields).
  Notation block_ok := (block_ok cx sigs funs fields).
  Notation marms_ok := (marms_ok cx sigs funs fields).
  Notation harms_ok := (harms_ok cx sigs funs fields).
  Notation use_ok := (use_ok cx sigs funs fields).
  Notation range_ok := (range_ok cx sigs funs fields).

  Lemma gen_block_nil f env : gen_block f env [] = Some (env, []).
  Proof. reflexivity. Qed.

  Lemma gen_block_cons f env s r :
    gen_block f env (s :: r) =
    match f env s with
    | Some (env', o) => match gen_block f env' r with
                        | Some (env'', o') => Some (env'', o ++ o')
                        | None => None
                        end
    | None => None
    end.
  Proof. reflexivity. Qed.

  Lemma gen_s_match R env e arms :
    gen_s R env (SMatch e arms) =
    match gen_e env e, gen_marms R env arms with
    | Some (_, _, o), Some os => Some (env, o ++ os)
    | _, _ => None
    end.
  Proof.
    cbn [Typing.gen_s]. destruct (gen_e env e) as [[[t0 lo0] o0]|]; [|reflexivity].
    apply match_some. induction arms as [|[p b] r IH]; [reflexivity|]. cbn [Typing.gen_marms]. rewrite <- IH. reflexivity.
  Qed.

  Lemma gen_s_handle R env bd call arms :
    gen_s R env (SHandle bd call arms) =
    match gen_e env call with
    | Some (t, lo, o) =>
        match gen_harms R env bd t arms with
        | Some os => Some (bind_env bd t lo env, o ++ bind_obl bd t lo ++ os)
        | None => None
        end
    | None => None
    end.
  Proof.
    cbn [Typing.gen_s]. destruct (gen_e env call) as [[[t lo] o]|]; [|reflexivity].
    apply match_some. induction arms as [|[exc var body val] r IH]; [reflexivity|].
    cbn [Typing.gen_harms Typing.gen_harm]. rewrite IH. unfold Typing.gen_b.
    destruct (gen_block (gen_s R) ((var, vfix (tcls exc)) :: env) body) as [[env' ob]|]; [|reflexivity].
    (* the two sides differ only in how the arm's obligations are bracketed with those of the rest *)
    destruct (gen_harms R env bd t r) as [os|], val as [v|], bd; try destruct (gen_e env' v) as [[[tv lv] ov]|];
      rewrite <- ?app_assoc; reflexivity.
  Qed.

  Lemma use_iff m env e :
    use_ok m (erase env) e <-> g_ok (gen_use m env e).
  Proof.
    unfold Typing.use_ok, Typing.gen_use, g_ok. split.
    - intros [t [rt [HT HM]]]. apply gen_e_iff in HT as [lo [o [E D]]]. rewrite E.
      destruct (call_complete (t, lo) m [] rt HM) as [o' [E' D']]. rewrite E'.
      close.
    - intros [l [E D]]. inv E. norm D. eexists _, _.
      split; [eapply sound_e | eapply call_sound]; intuition eauto.
  Qed.

  Lemma use_sound m env e l : gen_use m env e = Some l -> holds l -> use_ok m (erase env) e.
  Proof. intros E D. apply use_iff. exists l. auto. Qed.

  Lemma erase_cons x v env : erase ((x, v) :: env) = (x, {| d_ty := v_ty v; d_mut := v_mut v |}) :: erase env.
  Proof. reflexivity. Qed.

  Lemma erase_bind bd t lo env : erase (bind_env bd t lo env) = dbind_env bd t (erase env).
  Proof. destruct bd as [b|]; [|reflexivity]. unfold bind_env, dbind_env. destruct (b_ann b); reflexivity. Qed.

  Scheme stmt_ok_mind := Minimality for Typing.stmt_ok Sort Prop
    with block_ok_mind := Minimality for Typing.block_ok Sort Prop
    with marms_ok_mind := Minimality for Typing.marms_ok Sort Prop
    with harms_ok_mind := Minimality for Typing.harms_ok Sort Prop.
  Combined Scheme stmt_ok_mutind from stmt_ok_mind, block_ok_mind, marms_ok_mind, harms_ok_mind.

  Definition b_ok (r : option sres) (denv' : denv) : Prop :=
    exists env' l, r = Some (env', l) /\ erase env' = denv' /\ holds l.

  Lemma bind_obl_ok bd t lo :
    (forall b T, bd = Some b -> b_ann b = Some T -> sub [T] t) <-> holds (bind_obl bd t lo).
  Proof.
    unfold bind_obl. destruct bd as [b|]; [|split; [reflexivity|intros _ b T Hb; discriminate]].
    destruct (b_ann b) as [T|] eqn:EA; autorewrite with holds; split.
    - intros H. split; [exact (H b T eq_refl EA) | exact I].
    - intros [H _] b' T' Hb HA. inversion Hb; subst b'. rewrite EA in HA. inversion HA; subst. exact H.
    - exact (fun _ => I).
    - intros _ b' T' Hb HA. inversion Hb; subst b'. rewrite EA in HA. discriminate.
  Qed.

  Lemma complete_stmts R :
    (forall denv s denv', stmt_ok R denv s denv' -> forall env, erase env = denv -> b_ok (gen_s R env s) denv') /\
    (forall denv b denv', block_ok R denv b denv' -> forall env, erase env = denv -> b_ok (gen_b R env b) denv') /\
    (forall denv arms, marms_ok R denv arms -> forall env, erase env = denv -> g_ok (gen_marms R env arms)) /\
    (forall denv bd t arms, harms_ok R denv bd t arms -> forall env, erase env = denv -> g_ok (gen_harms R env bd t arms)).
  Proof.
    apply stmt_ok_mutind; intros; unfold b_ok, g_ok, Typing.gen_b in *; subst.
    1, 2, 5, 13: (* DefAnn, DefInf, Expr, Raise *)
      apply gen_e_iff in H as [lo [o [E D]]]; cbn [Typing.gen_s]; rewrite E; close.
    - (* Assign *) rewrite lookup_erase in H. destruct (lookup env0 x) as [w|] eqn:EL; [|discriminate].
      cbn in H. inversion H; subst v. cbn in H0, H2. apply gen_e_iff in H1 as [lo [o [E D]]].
      cbn [Typing.gen_s]. rewrite EL, E, H0. close.
    - (* SetField *) apply gen_e_iff in H as [lb [o1 [E1 D1]]]. apply gen_e_iff in H2 as [lo [o2 [E2 D2]]].
      cbn [Typing.gen_s]. rewrite E1, E2, H1. close.
    - (* Print *) apply use_iff in H as [o [E D]]. cbn [Typing.gen_s]. rewrite E. close.
    - (* If *) apply use_iff in H as [o [E D]].
      destruct (H1 env0 eq_refl) as [e1 [o1 [E1 [_ D1]]]]. destruct (H3 env0 eq_refl) as [e2 [o2 [E2 [_ D2]]]].
      cbn [Typing.gen_s]. rewrite E, E1, E2. close.
    - (* While *) apply use_iff in H as [o [E D]]. destruct (H1 env0 eq_refl) as [e1 [o1 [E1 [_ D1]]]].
      cbn [Typing.gen_s]. rewrite E, E1. close.
    - (* For *) destruct H as [t1 [HT1 HS1]]. destruct H0 as [t2 [HT2 HS2]].
      apply gen_e_iff in HT1 as [l1 [o1 [E1 D1]]]. apply gen_e_iff in HT2 as [l2 [o2 [E2 D2]]].
      destruct (H2 ((x, vfix tInt) :: env0) eq_refl) as [e3 [o3 [E3 [_ D3]]]].
      cbn [Typing.gen_s]. rewrite E1, E2, E3. close.
    - (* Match *) apply gen_e_iff in H as [lo [o [E D]]]. destruct (H1 env0 eq_refl) as [os [E1 D1]].
      rewrite gen_s_match, E, E1. close.
    - (* Handle *) apply gen_e_iff in H as [lo [o [E D]]]. destruct (H2 env0 eq_refl) as [os [E1 D1]].
      apply (bind_obl_ok bd t lo) in H0. rewrite gen_s_handle, E, E1. close. apply erase_bind.
    - (* Return *) apply gen_e_iff in H0 as [lo [o [E D]]]. cbn [Typing.gen_s]. rewrite E. close.
    - (* B_nil *) close.
    - (* B_cons *) destruct (H0 env0 eq_refl) as [e1 [o1 [E1 [Ee1 D1]]]].
      destruct (H2 e1 Ee1) as [e2 [o2 [E2 [Ee2 D2]]]]. rewrite gen_block_cons, E1, E2. close.
    - (* MA_nil *) close.
    - (* MA_cons *) destruct (H0 env0 eq_refl) as [e1 [o1 [E1 [_ D1]]]]. destruct (H2 env0 eq_refl) as [os [E2 D2]].
      cbn [Typing.gen_marms]. unfold Typing.gen_b. rewrite E1, E2. close.
    - (* HA_nil *) close.
    - (* HA_val *) destruct (H0 ((var, vfix (tcls exc)) :: env0) eq_refl) as [e1 [ob [E1 [Ee1 D1]]]].
      subst env1. apply gen_e_iff in H1 as [lv [ov [E2 D2]]]. destruct (H4 env0 eq_refl) as [os [E3 D3]].
      cbn [Typing.gen_harms Typing.gen_harm]. unfold Typing.gen_b. rewrite E1, E2, E3. close.
    - (* HA_noval *) destruct (H0 ((var, vfix (tcls exc)) :: env0) eq_refl) as [e1 [ob [E1 [Ee1 D1]]]].
      destruct (H2 env0 eq_refl) as [os [E3 D3]].
      cbn [Typing.gen_harms Typing.gen_harm]. unfold Typing.gen_b. rewrite E1, E3. close.
  Qed.

  Section StmtInd.
    Variable P : stmt -> Prop.
    Definition arm_all (a : harm) : Prop := match a with HArm _ _ body _ => Forall P body end.
    Hypothesis HDef : forall x mut ann e, P (SDef x mut ann e).
    Hypothesis HAssign : forall x e, P (SAssign x e).
    Hypothesis HSetField : forall o f e, P (SSetField o f e).
    Hypothesis HExpr : forall e, P (SExpr e).
    Hypothesis HPrint : forall e, P (SPrint e).
    Hypothesis HIf : forall c t e, Forall P t -> Forall P e -> P (SIf c t e).
    Hypothesis HWhile : forall c b, Forall P b -> P (SWhile c b).
    Hypothesis HFor : forall x lo hi b, Forall P b -> P (SFor x lo hi b).
    Hypothesis HMatch : forall e arms, Forall (fun a => Forall P (snd a)) arms -> P (SMatch e arms).
    Hypothesis HHandle : forall bd call arms, Forall arm_all arms -> P (SHandle bd call arms).
    Hypothesis HReturn : forall e, P (SReturn e).
    Hypothesis HRaise : forall exc args, P (SRaise exc args).

    Fixpoint stmt_ind' (s : stmt) : P s :=
      let fix go (l : list stmt) : Forall P l :=
        match l with
        | [] => Forall_nil P
        | x :: r => Forall_cons x (stmt_ind' x) (go r)
        end in
      match s with
      | SDef x mut ann e => HDef x mut ann e
      | SAssign x e => HAssign x e
      | SSetField o f e => HSetField o f e
      | SExpr e => HExpr e
      | SPrint e => HPrint e
      | SIf c t e => HIf c t e (go t) (go e)
      | SWhile c b => HWhile c b (go b)
      | SFor x lo hi b => HFor x lo hi b (go b)
      | SMatch e arms =>
          HMatch e arms
            ((fix goa (l : list (pat * list stmt)) : Forall (fun a => Forall P (snd a)) l :=
                match l with
                | [] => Forall_nil _
                | (p, b) :: r => Forall_cons (p, b) (go b) (goa r)
                end) arms)
      | SHandle bd call arms =>
          HHandle bd call arms
            ((fix goh (l : list harm) : Forall arm_all l :=
                match l with
                | [] => Forall_nil _
                | HArm exc var body val :: r => Forall_cons (HArm exc var body val) (go body) (goh r)
                end) arms)
      | SReturn e => HReturn e
      | SRaise exc args => HRaise exc args
      end.
  End StmtInd.

  Definition s_sound (s : stmt) : Prop :=
    forall R env env' l, gen_s R env s = Some (env', l) -> holds l -> stmt_ok R (erase env) s (erase env').

  Lemma sound_b : forall b, Forall s_sound b ->
    forall R env env' l, gen_b R env b = Some (env', l) -> holds l -> block_ok R (erase env) b (erase env').
  Proof.
    unfold s_sound, Typing.gen_b. induction 1 as [|s r Hs _ IH]; intros R env env' l E D;
      [rewrite gen_block_nil in E | rewrite gen_block_cons in E]; inv E; norm D;
      econstructor; intuition eauto.
  Qed.

  Lemma sound_b_cons b x t : Forall s_sound b ->
    forall R env env' l, gen_b R ((x, vfix t) :: env) b = Some (env', l) -> holds l ->
    block_ok R ((x, dfix t) :: erase env) b (erase env').
  Proof. intros H R env. exact (sound_b b H R ((x, vfix t) :: env)). Qed.

  Lemma sound_marms : forall arms, Forall (fun a => Forall s_sound (snd a)) arms ->
    forall R env l, gen_marms R env arms = Some l -> holds l -> marms_ok R (erase env) arms.
  Proof.
    induction 1 as [|[p b] r Hb _ IH]; intros R env l E D; cbn [Typing.gen_marms] in E; inv E;
      norm D; econstructor; intuition eauto using sound_b.
  Qed.

  Lemma sound_harms : forall arms, Forall (arm_all s_sound) arms ->
    forall R env bd t l, gen_harms R env bd t arms = Some l -> holds l -> harms_ok R (erase env) bd t arms.
  Proof.
    induction 1 as [|[exc var body val] r Hb _ IH]; intros R env bd t l E D;
      cbn [Typing.gen_harms Typing.gen_harm] in E; inv E; norm D;
      unfold arm_all in *; econstructor; intuition eauto using sound_b, sound_b_cons, sound_e.
  Qed.

  Lemma lookup_erase_some env x v :
    lookup env x = Some v -> dlookup (erase env) x = Some {| d_ty := v_ty v; d_mut := v_mut v |}.
  Proof. intros E. rewrite lookup_erase, E. reflexivity. Qed.

  Lemma sound_s : forall s, s_sound s.
  Proof.
    apply (stmt_ind' s_sound); intros; unfold s_sound; intros;
      match goal with E : Typing.gen_s _ _ _ _ _ _ _ = Some _, D : holds _ |- _ =>
        try rewrite gen_s_match in E; try rewrite gen_s_handle in E; cbn [Typing.gen_s] in E; inv E;
        norm D; rewrite <- ?(bind_obl_ok bd) in D
      end;
      rewrite ?erase_cons, ?erase_bind; cbn [v_ty v_mut];
      try (econstructor;
           intuition eauto using sound_e, sound_b, sound_b_cons, sound_marms, sound_harms, use_sound, lookup_erase_some; fail).
    - (* SFor: the two bounds are typed separately, each against [Int] *)
      econstructor; [exists t; split | exists t0; split |]; intuition eauto using sound_e, sound_b_cons.
  Qed.

  Lemma sound_block R env b env' l :
    gen_b R env b = Some (env', l) -> holds l -> block_ok R (erase env) b (erase env').
  Proof. apply sound_b, Forall_forall. intros s _. apply sound_s. Qed.

  Theorem gen_b_iff R env b denv' :
    block_ok R (erase env) b denv' <-> b_ok (gen_b R env b) denv'.
  Proof.
    split.
    - intros H. exact (proj1 (proj2 (complete_stmts R)) (erase env) b denv' H env eq_refl).
    - intros [env' [l [E [<- D]]]]. exact (sound_block R env b env' l E D).
  Qed.

  Notation gen_params := (gen_params cx sigs funs fields).
  Notation gen_fun := (gen_fun cx sigs funs fields).
  Notation gen_funs := (gen_funs cx sigs funs fields).
  Notation gen_class := (gen_class cx sigs funs fields).
  Notation gen_classes := (gen_classes cx sigs funs fields).
  Notation gen_prog := (gen_prog cx sigs funs fields).
  Notation params_ok := (params_ok cx sigs funs fields).
  Notation fun_ok := (fun_ok cx sigs funs fields).
  Notation class_ok := (class_ok cx sigs funs fields).

  Lemma params_iff ps : params_ok ps <-> g_ok (gen_params ps).
  Proof.
    unfold g_ok. induction ps as [|p r IH]; cbn [Typing.gen_params].
    - split; [close | constructor].
    - split.
      + intros H. inversion H as [| p' r' HN HR | p' r' d t HD HT HS HR]; subst;
          apply IH in HR as [os [E D]]; rewrite E.
        * rewrite HN. close.
        * rewrite HD. apply (gen_e_iff []) in HT as [lo [o [E1 D1]]]. rewrite E1. close.
      + intros [l [E D]]. inv E; norm D; [eapply PO_def | apply PO_nodef]; try apply IH;
          intuition eauto using (fun d => sound_e d []).
  Qed.

  Lemma fun_iff self f : fun_ok self f <-> g_ok (gen_fun self f).
  Proof.
    unfold g_ok, Typing.gen_fun.
    set (env := param_env (fd_params f) ++ match self with Some c => [("self", vfix (tcls c))] | None => [] end).
    assert (Eenv : fun_env self f = erase env) by reflexivity.
    split.
    - intros H. destruct H as [env1 T e t HP HB ER EX HT HS | env1 T HP HB ER EX HRet | env1 HP HB ER EX | env1 e t HP HB ER EX HT];
        apply params_iff in HP as [op [EP DP]]; rewrite Eenv in HB; apply gen_b_iff in HB as [env' [ob [EB [Ee DB]]]];
        rewrite EP, EB, ER, EX; try subst env1; try (apply gen_e_iff in HT as [lo [o [E1 D1]]]; rewrite E1); close.
    - intros [l [E D]]. destruct (gen_params (fd_params f)) as [op|] eqn:EP; [|discriminate].
      destruct (gen_b (fd_ret f) env (fd_body f)) as [[env' ob]|] eqn:EB; [|discriminate].
      pose proof (fun D => proj2 (params_iff _) (ex_intro _ op (conj EP D))) as HP.
      pose proof (sound_block _ _ _ _ _ EB) as HB. rewrite <- Eenv in HB.
      destruct (fd_ret f) as [T|] eqn:ER in E; destruct (fd_result f) as [e|] eqn:EX; inv E; norm D;
        [eapply F_result | eapply F_returns | eapply F_proc_e | eapply F_proc]; intuition eauto using sound_e.
  Qed.

  Lemma g_ok_list {A} (f : A -> option (list oblig)) (gl : list A -> option (list oblig)) (P : A -> Prop) :
    gl [] = Some [] ->
    (forall x r, gl (x :: r) = match f x, gl r with Some o, Some os => Some (o ++ os) | _, _ => None end) ->
    (forall x, P x <-> g_ok (f x)) -> forall l, Forall P l <-> g_ok (gl l).
  Proof.
    intros Hn Hc HP. unfold g_ok in *. induction l as [|x r IH]; [rewrite Hn | rewrite Hc]; split.
    - close.
    - constructor.
    - intros H. inversion H as [|x' r' Hx Hr]; subst. apply HP in Hx as [o [E D]]. apply IH in Hr as [os [E' D']].
      rewrite E, E'. close.
    - intros [l [E D]]. inv E. norm D. constructor; [apply HP | apply IH]; intuition eauto.
  Qed.

  Lemma funs_iff self fs : Forall (fun_ok self) fs <-> g_ok (gen_funs self fs).
  Proof. apply g_ok_list with (f := gen_fun self); [reflexivity | reflexivity | apply fun_iff]. Qed.

  Lemma funs_sound self fs l : gen_funs self fs = Some l -> holds l -> Forall (fun_ok self) fs.
  Proof. intros E D. apply funs_iff. exists l. auto. Qed.

  Lemma dis_retag k o : dis (retag k o) = dis o.
  Proof. destruct o as [k' T t lo| | | |]; try reflexivity. destruct k'; cbn [retag]; rewrite ?dis_sub; reflexivity. Qed.

  Lemma holds_retag k l : holds (map (retag k) l) <-> holds l.
  Proof. unfold holds. induction l as [|o r IH]; [tauto|]. cbn [map forallb]. rewrite dis_retag, !andb_true_iff, IH. tauto. Qed.
  Hint Rewrite holds_retag : holds.

  Lemma class_iff c : class_ok c <-> g_ok (gen_class c).
  Proof.
    unfold g_ok, Typing.gen_class. split.
    - intros H. destruct H as [HM EPar | pn args fs ts HM EPar EF HT HA];
        apply funs_iff in HM as [om [EM DM]]; rewrite EM, EPar.
      + close.
      + rewrite EF. apply gen_es_iff in HT as [acts [oa [E1 [Em D1]]]]. subst ts. rewrite E1.
        destruct (zip_complete KFunArg KFunArg (fs_params fs) acts HA) as [o [E2 D2]]. rewrite E2. close.
    - intros [l [E D]]. inv E; norm D; [eapply C_parent | apply C_noparent];
        intuition eauto using funs_sound, sound_es, zip_sound.
  Qed.

  Lemma classes_iff cs : Forall class_ok cs <-> g_ok (gen_classes cs).
  Proof. apply g_ok_list with (f := gen_class); [reflexivity | reflexivity | apply class_iff]. Qed.

  (** C05 ([C05_check_iff_any_tables]); [check_with noq] is the repaired rule set *)
  Theorem check_iff p : check_with cx sigs funs fields noq p = true <-> conforms_with cx sigs funs fields p.
  Proof.
    unfold check_with, conforms_with, Typing.gen_prog. split.
    - intros H. destruct (gen_classes (p_classes p)) as [oc|] eqn:EC; [|discriminate].
      destruct (gen_funs None (p_funs p)) as [of|] eqn:EF; [|discriminate].
      destruct (gen_b None [] (p_main p)) as [[env om]|] eqn:EM; [|discriminate].
      change (holds (oc ++ of ++ om)) in H. norm H.
      split; [apply classes_iff | split; [apply funs_iff | exists (erase env); eapply (sound_block None [])]];
        unfold g_ok; intuition eauto.
    - intros [HC [HF [denv HM]]]. apply classes_iff in HC as [oc [EC DC]]. apply funs_iff in HF as [of [EF DF]].
      apply (gen_b_iff None []) in HM as [env [om [EM [_ DM]]]]. rewrite EC, EF, EM.
      change (holds (oc ++ of ++ om)). autorewrite with holds. auto.
  Qed.
End Tables.


Section Known.
  Variable builtins : ctx.
  Variable stubs : list msig.

  Theorem check_noq_iff p : check builtins stubs noq p = true <-> conforms builtins stubs p.
  Proof. apply check_iff. Qed.

  Lemma agree_outside cxp strip l :
    forallb (fun o => negb (in_known cxp strip o)) l = true ->
    forallb (discharge cxp (impl_quirks strip)) l = forallb (discharge cxp noq) l.
  Proof.
    induction l as [|o r IH]; [reflexivity|]. cbn [forallb]. intros H. apply andb_prop in H as [H1 H2].
    rewrite (IH H2). unfold in_known in H1. rewrite negb_involutive in H1. apply eqb_prop in H1. rewrite H1. reflexivity.
  Qed.

  Theorem outside_known strip p :
    known_free builtins stubs strip p = true ->
    (check builtins stubs (impl_quirks strip) p = true <-> conforms builtins stubs p).
  Proof.
    intros H. rewrite <- check_noq_iff. unfold check, check_with. unfold known_free, obligations in H.
    destruct (gen_prog (cx_of builtins p) (sigs_of stubs p) (funs_of stubs p) (fields_of p) p) as [l|]; [|tauto].
    rewrite (agree_outside _ _ _ H). tauto.
  Qed.

  Lemma strip_nonnull T : forallb (fun t => negb (tnull t)) T = true -> map strip_null T = T.
  Proof.
    induction T as [|[n c g] r IH]; [reflexivity|]. cbn [forallb map]. intros H. apply andb_prop in H as [H1 H2].
    rewrite (IH H2). destruct n; [discriminate|]. reflexivity.
  Qed.
End Known.

Inductive in_block : stmt -> list stmt -> Prop :=
| IB_here : forall s b, In s b -> in_block s b
| IB_deep : forall s s' b, In s' b -> in_stmt s s' -> in_block s b
with in_stmt : stmt -> stmt -> Prop :=
| IS_if_t : forall s c t e, in_block s t -> in_stmt s (SIf c t e)
| IS_if_e : forall s c t e, in_block s e -> in_stmt s (SIf c t e)
| IS_while : forall s c b, in_block s b -> in_stmt s (SWhile c b)
| IS_for : forall s x lo hi b, in_block s b -> in_stmt s (SFor x lo hi b)
| IS_match : forall s e arms p b, In (p, b) arms -> in_block s b -> in_stmt s (SMatch e arms)
| IS_handle : forall s bd call arms exc var body val,
    In (HArm exc var body val) arms -> in_block s body -> in_stmt s (SHandle bd call arms).

Definition stmt_in_program (s : stmt) (p : program) : Prop :=
  in_block s (p_main p) \/
  (exists f, In f (p_funs p) /\ in_block s (fd_body f)) \/
  (exists c m, In c (p_classes p) /\ In m (cd_methods c) /\ in_block s (fd_body m)).

Definition stmt_exprs (s : stmt) : list expr :=
  match s with
  | SDef _ _ _ e | SAssign _ e | SExpr e | SPrint e | SReturn e => [e]
  | SSetField o _ e => [o; e]
  | SIf c _ _ | SWhile c _ => [c]
  | SFor _ lo hi _ => [lo; hi]
  | SMatch e _ => [e]
  | SHandle _ call _ => [call]
  | SRaise exc args => [ECall exc args]
  end.

Inductive subexpr : expr -> expr -> Prop :=
| SE_refl : forall e, subexpr e e
| SE_op_l : forall e m l r, subexpr e l -> subexpr e (EOp m l r)
| SE_op_r : forall e m l r, subexpr e r -> subexpr e (EOp m l r)
| SE_not : forall e a, subexpr e a -> subexpr e (ENot a)
| SE_bool_l : forall e l r, subexpr e l -> subexpr e (EBoolOp l r)
| SE_bool_r : forall e l r, subexpr e r -> subexpr e (EBoolOp l r)
| SE_call : forall e f args a, In a args -> subexpr e a -> subexpr e (ECall f args)
| SE_meth_o : forall e o m args, subexpr e o -> subexpr e (EMeth o m args)
| SE_meth_a : forall e o m args a, In a args -> subexpr e a -> subexpr e (EMeth o m args)
| SE_field : forall e o f, subexpr e o -> subexpr e (EField o f)
| SE_quest_x : forall e x d, subexpr e x -> subexpr e (EQuest x d)
| SE_quest_d : forall e x d, subexpr e d -> subexpr e (EQuest x d)
| SE_if_c : forall e c t f, subexpr e c -> subexpr e (EIf c t f)
| SE_if_t : forall e c t f, subexpr e t -> subexpr e (EIf c t f)
| SE_if_e : forall e c t f, subexpr e f -> subexpr e (EIf c t f)
| SE_fmt : forall e es a, In a es -> subexpr e a -> subexpr e (EFmt es).

Section Local.
  Variable cx : ctx.
  Variable sigs : list msig.
  Variable funs : list fsig.
  Variable fields : list (string * string * ty).
  Notation has_type := (has_type cx sigs funs fields).
  Notation has_types := (has_types cx sigs funs fields).
  Notation strs_ok := (strs_ok cx sigs funs fields).
  Notation stmt_ok := (stmt_ok cx sigs funs fields).
  Notation block_ok := (block_ok cx sigs funs fields).
  Notation marms_ok := (marms_ok cx sigs funs fields).
  Notation harms_ok := (harms_ok cx sigs funs fields).

  Definition typable (d : denv) (e : expr) : Prop := exists t, has_type d e t.

  Lemma has_types_in d es ts a : has_types d es ts -> In a es -> typable d a.
  Proof.
    induction 1 as [|e es' t ts' He Hes IH]; intros HI; [destruct HI|].
    destruct HI as [<- | HI]; [exists t; exact He | exact (IH HI)].
  Qed.

  Lemma strs_ok_in d es a : strs_ok d es -> In a es -> typable d a.
  Proof.
    induction 1 as [|e es' t ts' He Hm Hes IH]; intros HI; [destruct HI|].
    destruct HI as [<- | HI]; [exists t; exact He | exact (IH HI)].
  Qed.

  Theorem local_expr d e e' : subexpr e e' -> typable d e' -> typable d e.
  Proof.
    induction 1; intros [t0 HT]; [exists t0; exact HT | inversion HT; subst; apply IHsubexpr ..];
      try (eexists; eassumption); eauto using has_types_in, strs_ok_in.
  Qed.

  Definition stmt_typable R (s : stmt) : Prop := exists d1 d2, stmt_ok R d1 s d2.

  Lemma block_in R d b d' s : block_ok R d b d' -> In s b -> stmt_typable R s.
  Proof.
    induction 1 as [|d0 s0 d1 r d2 Hs Hr IH]; intros HI; [destruct HI|].
    destruct HI as [<- | HI]; [exists d0, d1; exact Hs | exact (IH HI)].
  Qed.

  Lemma marms_in R d arms p b : marms_ok R d arms -> In (p, b) arms -> exists d0 d', block_ok R d0 b d'.
  Proof.
    induction 1 as [|d0 p0 b0 r d1 Hb Hr IH]; intros HI; [destruct HI|].
    destruct HI as [E | HI]; [inversion E; subst; eauto | exact (IH HI)].
  Qed.

  Lemma harms_in R d bd t arms exc var body val :
    harms_ok R d bd t arms -> In (HArm exc var body val) arms -> exists d0 d', block_ok R d0 body d'.
  Proof.
    induction 1; intros HI; [destruct HI| |].
    - destruct HI as [E | HI]; [inversion E; subst; eauto | eauto].
    - destruct HI as [E | HI]; [inversion E; subst; eauto | eauto].
  Qed.

  Scheme in_block_mind := Minimality for in_block Sort Prop
    with in_stmt_mind := Minimality for in_stmt Sort Prop.
  Combined Scheme in_block_mutind from in_block_mind, in_stmt_mind.

  Lemma local_stmt_all R :
    (forall s b, in_block s b -> (exists d d', block_ok R d b d') -> stmt_typable R s) /\
    (forall s s', in_stmt s s' -> forall d d', stmt_ok R d s' d' -> stmt_typable R s).
  Proof.
    apply in_block_mutind.
    1: { intros s b Hin [d [d' Hb]]. exact (block_in R d b d' s Hb Hin). }
    1: { intros s s' b Hin _ IH [d [d' Hb]]. destruct (block_in R d b d' s' Hb Hin) as [d1 [d2 Hs]]. exact (IH d1 d2 Hs). }
    (* a statement that holds blocks: its rule types each of them in some environments *)
    all: intros until d'; inversion 1; subst; eauto using marms_in, harms_in.
  Qed.

  Theorem local_block R d b d' s : block_ok R d b d' -> in_block s b -> stmt_typable R s.
  Proof. intros H HI. apply (proj1 (local_stmt_all R) s b HI). eauto. Qed.

  Theorem local_stmt_exprs R d s d' e : stmt_ok R d s d' -> In e (stmt_exprs s) -> exists d1, typable d1 e.
  Proof.
    intros H HI. destruct H; cbn [stmt_exprs] in HI; repeat (destruct HI as [<- | HI]); try contradiction;
      unfold Typing.use_ok, Typing.range_ok in *;
      repeat match goal with H : exists _, _ |- _ => destruct H end;
      repeat match goal with H : _ /\ _ |- _ => destruct H end;
      eexists; eexists; eassumption.
  Qed.

  (** C05, locality: a statement at any depth of a conforming program conforms in some environment; hence a
      statement that conforms in no environment, anywhere in the program, makes the program non-conforming *)
  Theorem conforms_local p s :
    conforms_with cx sigs funs fields p -> stmt_in_program s p -> exists R, stmt_typable R s.
  Proof.
    intros [HC [HF [denv HM]]] [H | [[f [Hf H]] | [c [m [Hc [Hm H]]]]]].
    - exists None. exact (local_block None [] (p_main p) denv s HM H).
    - rewrite Forall_forall in HF. specialize (HF f Hf). exists (fd_ret f).
      destruct HF; eapply local_block; eassumption.
    - rewrite Forall_forall in HC. specialize (HC c Hc).
      assert (HMs : Forall (fun_ok cx sigs funs fields (Some (cd_name c))) (cd_methods c)) by (destruct HC; assumption).
      rewrite Forall_forall in HMs. specialize (HMs m Hm). exists (fd_ret m).
      destruct HMs; eapply local_block; eassumption.
  Qed.

  Corollary nonconforming_anywhere p s :
    stmt_in_program s p -> (forall R d1 d2, ~ stmt_ok R d1 s d2) -> ~ conforms_with cx sigs funs fields p.
  Proof. intros HI HN HC. destruct (conforms_local p s HC HI) as [R [d1 [d2 H]]]. exact (HN R d1 d2 H). Qed.
End Local.

Definition requires_nonnull (T : name) : bool :=
  forallb (fun s => negb (tnull s) && negb (String.eqb (tcname s) ANY) && negb (is_null s)) T.

Section NullFlow.
  Variable cx : ctx.
  Hypothesis Hok : ctx_ok cx = true.
  Hypothesis Hacyc : acyclic cx.

  Lemma nonnull_accepted T t :
    plainN cx T = true -> plain cx t = true -> requires_nonnull T = true -> sub cx T t -> nonnull t = true.
  Proof.
    intros PT Pt HR HS. unfold sub in HS.
    assert (PB : plainN cx [t] = true) by (cbn; rewrite Pt; reflexivity).
    apply (super_true cx Hok Hacyc T [t] PT PB) in HS. destruct HS as [_ HS].
    destruct (HS t (or_introl eq_refl)) as [s [Hs Hts]].
    unfold requires_nonnull in HR. rewrite forallb_forall in HR. specialize (HR s Hs).
    apply andb_prop in HR as [HR Hnn]. apply andb_prop in HR as [Hn Ha].
    apply negb_true_iff in Hn, Ha, Hnn. unfold nonnull.
    destruct Hts as [[Hx _] | [[Hx | Hx] Hp]]; try congruence.
    rewrite Hx. cbn [negb andb]. destruct (is_null t) eqn:En; [|reflexivity]. exfalso.
    unfold is_null in En, Hnn. apply String.eqb_eq in En. destruct Hp as [Hp | Hp].
    - rewrite Hp in Ha. rewrite String.eqb_refl in Ha. discriminate.
    - rewrite En in Hp. apply (anc_none cx _ (Hspecial cx Hok)) in Hp. rewrite Hp, String.eqb_refl in Hnn. discriminate.
  Qed.

  Variable sigs : list msig.
  Variable funs : list fsig.
  Variable fields : list (string * string * ty).

  (** C06: in an accepted (equivalently, conforming) program no None and no T? reaches a position that requires a
      non-nullable T: argument, initialiser, new value of a variable or field, returned value, default, operand,
      receiver of a method / operator, receiver of a field access, range bound *)
  Theorem null_flow p l :
    conforms_with cx sigs funs fields p -> gen_prog cx sigs funs fields p = Some l ->
    (forall k T t lo, In (OSub k T t lo) l -> plainN cx T = true -> plain cx t = true ->
                      requires_nonnull T = true -> nonnull t = true) /\
    (forall t lo, In (OFieldRecv t lo) l -> nonnull t = true) /\
    (forall pth t lo, In (ORange pth t lo) l -> plainN cx [tInt] = true -> plain cx t = true -> nonnull t = true).
  Proof.
    intros HC HG. apply check_iff in HC. unfold check_with in HC. rewrite HG in HC. rewrite forallb_forall in HC.
    split; [|split].
    - intros k T t lo HI PT Pt HR. specialize (HC _ HI). apply holds_sub in HC.
      exact (nonnull_accepted T t PT Pt HR HC).
    - intros t lo HI. exact (proj1 (holds_field cx t lo) (HC _ HI)).
    - intros pth t lo HI PI Pt. specialize (HC _ HI). apply holds_range in HC.
      exact (nonnull_accepted [tInt] t PI Pt eq_refl HC).
  Qed.

  (** C06, positive half: T and None are accepted where T? is expected, T where T is *)
  Theorem nullable_accepts c :
    is_plain_class cx c = true -> c <> NONE ->
    sub cx [TN true c []] (tcls c) /\ sub cx [TN true c []] tNone /\ sub cx [tcls c] (tcls c).
  Proof.
    intros P Hn. split; [exact (nullable_accepts_base cx Hok Hacyc c P Hn)|].
    split; [exact (nullable_accepts_none cx Hok Hacyc c P Hn)|].
    apply (super_refl cx Hok Hacyc). cbn. unfold plain. cbn. rewrite P. reflexivity.
  Qed.

  Theorem quest_is_nonnull env x d c :
    is_plain_class cx c = true -> c <> NONE ->
    has_type cx sigs funs fields env x (TN true c []) -> has_type cx sigs funs fields env d (tcls c) ->
    has_type cx sigs funs fields env (EQuest x d) (tcls c).
  Proof.
    intros P Hn Hx Hd. destruct (nullable_accepts c P Hn) as [_ [HN HR]].
    eapply T_Quest; [exact Hx | exact Hd | exact HN |].
    unfold join_ty, strip_null, tcls. cbn [tcname tgens tnull is_null].
    apply String.eqb_neq in Hn. unfold is_null. cbn [tcname]. rewrite Hn.
    unfold csup, Typing.sup. unfold sub in HR. rewrite HR. reflexivity.
  Qed.
End NullFlow.


(** [null_flow] through [outside_known]; the range-bound clause is dropped ([q_range_rev] is one of the known
    classes) *)
Theorem null_flow_impl_outside_known builtins stubs strip : forall p l,
  ctx_ok (cx_of builtins p) = true -> acyclic (cx_of builtins p) ->
  known_free builtins stubs strip p = true ->
  check builtins stubs (impl_quirks strip) p = true -> obligations builtins stubs p = Some l ->
  (forall k T t lo, In (OSub k T t lo) l -> plainN (cx_of builtins p) T = true -> plain (cx_of builtins p) t = true ->
                    requires_nonnull T = true -> nonnull t = true) /\
  (forall t lo, In (OFieldRecv t lo) l -> nonnull t = true).
Proof.
  intros p l Hok Hac HK HC HO.
  apply (outside_known builtins stubs strip p HK) in HC.
  destruct (null_flow _ Hok Hac _ _ _ p l HC HO) as [H1 [H2 _]]. split; assumption.
Qed.
