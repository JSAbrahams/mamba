(** * C17 - infrastructure: clean states, table facts, shapes of [conv] results *)
From Coq Require Import List String Bool Arith Lia Ascii.
From MambaModel Require Import model.Core gen.Names model.Convert model.Api
  proofs.ConvUnfold proofs.ConvertProps.
Import ListNotations.
Local Open Scope string_scope.

Lemma mopt_inv {X Y} (f : X -> M Y) o i r j :
  mopt f o i = Some (r, j) -> is_some r = is_some o /\
  match o, r with Some x, Some y => f x i = Some (y, j) | _, _ => True end.
Proof.
  destruct o as [x|]; cbn [mopt]; intros H.
  - apply bind_inv in H. destruct H as (c & i1 & Hc & H). apply ret_inv in H. destruct H as [<- <-].
    split; [reflexivity | exact Hc].
  - apply ret_inv in H. destruct H as [<- _]. split; [reflexivity | exact I].
Qed.

(** states whose post-processing ([post]) is the identity *)
Definition clean (st : state) : Prop := assign_to st = None /\ last_ret st = false.

Lemma clear_clean st : clean st -> with_last_ret (with_assign st None) false = st.
Proof. destruct st. unfold clean. cbn. intros [-> ->]. reflexivity. Qed.
Lemma clean_clear st : clean (with_last_ret (with_assign st None) false).
Proof. split; reflexivity. Qed.
Lemma clean_state0 ann : clean (state0 ann). Proof. split; reflexivity. Qed.
Lemma clean_tup st : clean st -> clean (with_tup_lit st). Proof. intros H. exact H. Qed.
Lemma clean_interface st b : clean st -> clean (with_interface st b). Proof. intros H. exact H. Qed.
Lemma clean_dafa st b : clean st -> clean (with_def_as_fun_arg st b). Proof. intros H. exact H. Qed.
Lemma clean_expand st b : clean st -> clean (with_expand st b). Proof. intros H. exact H. Qed.

Lemma conv_clean a st i : clean st -> conv a st i = conv_result a st i.
Proof. intros [Ha Hl]. exact (conv_result_clean a st i Ha Hl). Qed.

(** in a clean state [Hc], [E : conv (A ty nd) st i = _] for a given [nd] becomes the case of [conv_result]
    for [nd], over [st] itself *)
Ltac conv_case E Hc :=
  rewrite (conv_clean _ _ _ Hc) in E; unfold conv_result in E; cbv beta match zeta in E;
  rewrite (clear_clean _ Hc) in E.

(** what the proofs need of the generated tables ([gen.Names]), as one computed check *)
Definition table_ok : bool :=
  forallb (fun kv => negb (existsb (String.eqb (snd kv)) [n_self_; n_init; "size"; "@"; "ABC"])
                     && negb (existsb (String.eqb (fst kv)) [n_self_; n_init; "ABC"])
                     && match funop_of (snd kv) with Some _ => false | None => true end) py_names
  && String.eqb (concrete_to_python n_tuple_m) n_tuple_py
  && String.eqb (concrete_to_python n_callable_m) n_callable_py.
Lemma table_ok_true : table_ok = true. Proof. vm_compute. reflexivity. Qed.

Lemma lookup_none k m : lookup k m = None -> forall v, ~ In (k, v) m.
Proof.
  induction m as [|[k' v'] m IH]; cbn [lookup]; [intros _ v []|].
  destruct (String.eqb k k') eqn:E; [discriminate|]. intros H v [Hin | Hin].
  - inversion Hin. subst. rewrite String.eqb_refl in E. discriminate.
  - exact (IH H v Hin).
Qed.

Lemma existsb_false {X} (f : X -> bool) l x : existsb f l = false -> In x l -> f x = false.
Proof.
  intros H Hin. destruct (f x) eqn:E; [|reflexivity]. rewrite <- H. symmetry. apply existsb_exists.
  exists x. split; assumption.
Qed.

Lemma table_row k v : In (k, v) py_names ->
  (forall t, In t [n_self_; n_init; "size"; "@"; "ABC"] -> String.eqb v t = false) /\
  (forall t, In t [n_self_; n_init; "ABC"] -> String.eqb k t = false) /\ funop_of v = None.
Proof.
  intros Hin. pose proof table_ok_true as H. unfold table_ok in H.
  apply andb_prop in H. destruct H as [H _]. apply andb_prop in H. destruct H as [H _].
  rewrite forallb_forall in H. specialize (H _ Hin). cbn [fst snd] in H.
  apply andb_prop in H. destruct H as [H H3]. apply andb_prop in H. destruct H as [H1 H2].
  apply negb_true_iff in H1, H2. repeat split.
  - intros t. apply existsb_false, H1.
  - intros t. apply existsb_false, H2.
  - destruct (funop_of v); [discriminate H3 | reflexivity].
Qed.

Lemma ctp_reserved t : In t [n_self_; n_init; "ABC"] -> forall s, concrete_to_python s = t <-> s = t.
Proof.
  intros Ht s. unfold concrete_to_python. destruct (lookup s py_names) as [p|] eqn:E; [|reflexivity].
  apply lookup_in in E. destruct (table_row s p E) as (H1 & H2 & _).
  assert (Ht' : In t [n_self_; n_init; "size"; "@"; "ABC"]) by (cbn [In] in *; tauto).
  split; intros ->; [specialize (H1 _ Ht') | specialize (H2 _ Ht)]; rewrite String.eqb_refl in *; discriminate.
Qed.

Lemma ctp_value s :
  concrete_to_python s = s \/
  (funop_of (concrete_to_python s) = None /\ String.eqb (concrete_to_python s) "size" = false
   /\ concrete_to_python s <> "@" /\ concrete_to_python s <> n_init).
Proof.
  unfold concrete_to_python. destruct (lookup s py_names) as [p|] eqn:E; [|left; reflexivity].
  right. apply lookup_in in E. destruct (table_row s p E) as (H1 & _ & H3).
  split; [exact H3|]. split; [|split; apply String.eqb_neq]; apply H1; cbn [In]; tauto.
Qed.

Lemma is_nid_inv a : is_nid a = true -> exists ty s, a = A ty (NId s).
Proof.
  destruct a as [ty nd]. unfold is_nid. cbn [ast_node]. destruct nd; try discriminate.
  intros _. eexists. eexists. reflexivity.
Qed.

Lemma wf_param_inv a :
  wf_param a = true -> exists ty va vty s aty d, a = A ty (NFunArg va (A vty (NId s)) aty d).
Proof.
  destruct a as [ty nd]. unfold wf_param. cbn [ast_node]. destruct nd; try discriminate.
  intros H. destruct (is_nid_inv _ H) as (vty & s & ->). repeat eexists.
Qed.

Lemma wf_carg_inv a :
  wf_carg a = true -> wf_param a = true \/ exists ty vty s t e, a = A ty (NVarDef (A vty (NId s)) t e).
Proof.
  destruct a as [ty nd]. unfold wf_carg, wf_param. cbn [ast_node]. destruct nd; try discriminate.
  - intros H. right. destruct (is_nid_inv _ H) as (vty0 & s & ->). repeat eexists.
  - intros H. left. exact H.
Qed.

Lemma wf_fun_inv a :
  wf_fun a = true ->
  exists ty ity name args rt body,
    a = A ty (NFunDef (A ity (NId name)) args rt body) /\ is_ident name = true /\ forallb wf_param args = true.
Proof.
  destruct a as [ty nd]. unfold wf_fun. cbn [ast_node]. destruct nd; try discriminate.
  destruct id as [ity idn]. destruct idn; try discriminate.
  intros H. apply andb_prop in H. repeat eexists; apply H.
Qed.

Lemma wf_vardef_inv a :
  wf_vardef a = true ->
  exists ty var vty expr, a = A ty (NVarDef var vty expr) /\ forall e, expr = Some e -> opaque (ast_node e) = true.
Proof.
  destruct a as [ty nd]. unfold wf_vardef. cbn [ast_node]. destruct nd; try discriminate.
  intros H. repeat eexists. intros e ->. exact H.
Qed.

Lemma is_parent_inv a : is_parent a = true -> exists ty name gs args, a = A ty (NParent name gs args).
Proof.
  destruct a as [ty nd]. unfold is_parent. cbn [ast_node]. destruct nd; try discriminate.
  intros _. repeat eexists.
Qed.

Lemma conv_id_eq ty s st i : clean st -> conv (A ty (NId s)) st i = Some (Id (concrete_to_python s), i).
Proof. intros H. rewrite conv_clean by exact H. reflexivity. Qed.

Definition plain (c : core) : bool :=
  match c with
  | FunDef _ _ _ _ _ | FunDefOp _ _ _ _ | ClassDef _ _ _ | VarDef _ _ _ | Block _ => false
  | _ => true
  end.

Definition mplain (m : M core) : Prop := forall i c j, m i = Some (c, j) -> plain c = true.
Lemma mplain_ret c : plain c = true -> mplain (ret c).
Proof. intros H i c' j E. apply ret_inv in E. destruct E as [<- _]. exact H. Qed.
Lemma mplain_fail : mplain fail. Proof. intros i c j E. discriminate E. Qed.
Lemma mplain_bind {X} (m : M X) k : (forall x, mplain (k x)) -> mplain (bind m k).
Proof. intros H i c j E. apply bind_inv in E. destruct E as (x & i' & _ & E). exact (H x i' c j E). Qed.

Lemma conv_result_plain ty nd st : opaque nd = true -> mplain (conv_result (A ty nd) st).
Proof.
  intros Ho. unfold conv_result. cbv beta zeta. destruct nd; try discriminate Ho;
    (* every path through an opaque node ends in [fail] or in [ret] of a plain constructor *)
    repeat first
      [ simple apply mplain_fail
      | simple apply mplain_ret; reflexivity
      | simple apply mplain_ret;
        match goal with
        | |- plain (bin_core ?o _ _) = true => destruct o; reflexivity
        | |- plain (if ?b then _ else _) = true => destruct b; reflexivity
        end
      | simple apply mplain_bind; intro
      | match goal with |- mplain (match ?x with _ => _ end) => destruct x end ].
Qed.

Lemma conv_opaque_plain ty nd st i c j :
  opaque nd = true -> clean st -> conv (A ty nd) st i = Some (c, j) -> plain c = true.
Proof. intros Ho Hc E. rewrite conv_clean in E by exact Hc. exact (conv_result_plain ty nd st Ho _ _ _ E). Qed.

Lemma asg_head v ty c :
  plain c = true ->
  plain (tmap (asg_leaf v ty) [] c) = true \/ exists e, tmap (asg_leaf v ty) [] c = VarDef v ty e.
Proof.
  intros Hp. destruct (is_tail c) eqn:Ht.
  - left. destruct c; try discriminate Ht; try discriminate Hp; reflexivity.
  - rewrite tmap_leaf by exact Ht. unfold asg_leaf.
    destruct (skip_assign c); [left; exact Hp | right; eexists; reflexivity].
Qed.

Lemma conv_vardef_head ty var vty expr st i c j :
  (forall e, expr = Some e -> opaque (ast_node e) = true) -> clean st ->
  conv (A ty (NVarDef var vty expr)) st i = Some (c, j) ->
  exists v j1, conv var (with_tup_lit st) i = Some (v, j1) /\ (plain c = true \/ exists t e, c = VarDef v t e).
Proof.
  intros Hwf Hc E. conv_case E Hc.
  apply bind_inv in E. destruct E as (v & i1 & Hv & E). exists v, i1. split; [exact Hv|].
  apply bind_inv in E. destruct E as (t & i2 & _ & E).
  destruct (def_as_fun_arg st).
  { apply bind_inv in E. destruct E as (d & i3 & _ & E). apply ret_inv in E. destruct E as [<- _]. left. reflexivity. }
  destruct expr as [[ety en]|].
  - apply bind_inv in E. destruct E as (c0 & i3 & _ & E). rewrite branch_match in E.
    destruct (is_branching c0).
    + (* converted again, the raw result is plain and [post] assigns in its branches *)
      rewrite conv_unfold in E. apply bind_inv in E. destruct E as (c1 & i4 & Hc1 & E).
      apply (conv_result_plain ety en _ (Hwf _ eq_refl)) in Hc1.
      unfold post in E. cbn [assign_to with_assign last_ret] in E. rewrite (proj2 Hc) in E.
      apply bind_inv in E. destruct E as (c2 & i5 & Hc2 & E). apply ret_inv in E. destruct E as [<- _].
      unfold lift in Hc2. rewrite append_assign_nf in Hc2. injection Hc2 as <- _.
      destruct (asg_head v (onm_core (ast_ty (A ety en))) c1 Hc1) as [H | (e & H)]; [left; exact H | right; eauto].
    + apply ret_inv in E. destruct E as [<- _]. right. eauto.
  - rewrite tl_match in E. apply ret_inv in E. destruct E as [<- _]. right. eauto.
Qed.

Lemma tn_head name gs i t j :
  lift (tn_to_py (TN false name gs)) i = Some (t, j) -> exists gs', t = Type_ (concrete_to_python name) gs'.
Proof.
  pose proof table_ok_true as Ht. unfold table_ok in Ht. apply andb_prop in Ht. destruct Ht as [Ht Hcal].
  apply andb_prop in Ht. destruct Ht as [_ Htup]. apply String.eqb_eq in Hcal, Htup.
  unfold lift. rewrite tn_to_py_nf. intros H. injection H as <- _.
  cbn [tn_core tn_core_with]. unfold variant_core.
  destruct (String.eqb name n_tuple_m) eqn:E1; [apply String.eqb_eq in E1; rewrite E1, Htup; eauto|].
  destruct (String.eqb name n_callable_m) eqn:E2; [apply String.eqb_eq in E2; rewrite E2, Hcal|]; eauto.
Qed.

Definition funarg_id (c : core) : bool := match c with FunArg _ (Id _) _ _ => true | _ => false end.
Definition isfun (c : core) : bool := match c with FunDef _ _ _ _ _ | FunDefOp _ _ _ _ => true | _ => false end.
Definition fun_args (c : core) : list core :=
  match c with FunDef _ _ a _ _ | FunDefOp _ a _ _ => a | _ => [] end.

(** [C17_fun_arg_preserved] *)
Lemma fun_arg_preserved a st i c j :
  wf_param a = true -> clean st -> conv a st i = Some (c, j) ->
  param_py c = py_param (param_src a) /\ funarg_id c = true.
Proof.
  intros Hwf Hc E. destruct (wf_param_inv a Hwf) as (ty & va & vty & s & aty & d0 & ->). conv_case E Hc.
  apply bind_inv in E. destruct E as (v & i1 & Hv & E). rewrite conv_id_eq in Hv by exact Hc.
  injection Hv as <- <-. apply bind_inv in E. destruct E as (t & i2 & _ & E).
  apply bind_inv in E. destruct E as (d & i3 & Hd & E). apply ret_inv in E. destruct E as [<- _].
  apply mopt_inv in Hd. destruct Hd as [Hd _]. cbn [param_py core_name funarg_id]. rewrite Hd.
  split; reflexivity.
Qed.

(** class arguments ([def a: T := e] or [a: T := e]) become parameters the same way *)
Lemma class_arg_preserved a st i c j :
  wf_carg a = true -> clean st -> def_as_fun_arg st = true -> conv a st i = Some (c, j) ->
  param_py c = py_param (param_src a) /\ funarg_id c = true.
Proof.
  intros Hwf Hc Hd E.
  destruct (wf_carg_inv a Hwf) as [Hp | (ty & vty & s & t0 & e & ->)]; [exact (fun_arg_preserved a st i c j Hp Hc E)|].
  conv_case E Hc.
  apply bind_inv in E. destruct E as (v & i1 & Hv & E). rewrite conv_id_eq in Hv by (apply clean_tup, Hc).
  injection Hv as <- <-. apply bind_inv in E. destruct E as (t & i2 & _ & E). rewrite Hd in E.
  apply bind_inv in E. destruct E as (d & i3 & Hdd & E). apply ret_inv in E. destruct E as [<- _].
  apply mopt_inv in Hdd. destruct Hdd as [Hdd _]. cbn [param_py core_name funarg_id]. rewrite Hdd. split; reflexivity.
Qed.

Lemma conv_all (wf : ast -> bool) (R : ast -> core -> Prop) st l cs :
  (forall a i c j, wf a = true -> conv a st i = Some (c, j) -> R a c) -> forallb wf l = true ->
  Forall2 (fun x y => exists i j, conv x st i = Some (y, j)) l cs -> Forall2 R l cs.
Proof.
  intros HR Hwf HF. induction HF as [|a c l cs (i & j & E) _ IH]; [constructor|].
  cbn [forallb] in Hwf. apply andb_prop in Hwf. destruct Hwf as [Ha Hr].
  constructor; [exact (HR a i c j Ha E) | exact (IH Hr)].
Qed.

Lemma params_preserved args cs :
  Forall2 (fun a c => param_py c = py_param (param_src a) /\ funarg_id c = true) args cs ->
  map param_py cs = map py_param (map param_src args) /\ forallb funarg_id cs = true.
Proof.
  induction 1 as [|a c args cs [H1 H2] _ [H3 H4]]; [split; reflexivity|].
  cbn [map forallb]. rewrite H1, H2, H3, H4. split; reflexivity.
Qed.

Lemma fun_sig_preserved a st i c j :
  wf_fun a = true -> clean st -> conv a st i = Some (c, j) ->
  exists f, fsig_src a = Some f /\ fsig_py c = Some (py_fsig f) /\ isfun c = true
            /\ forallb funarg_id (fun_args c) = true.
Proof.
  intros Hwf Hc E. destruct (wf_fun_inv a Hwf) as (ty & ity & s & args & rt & body & -> & _ & Hargs).
  conv_case E Hc.
  apply bind_inv in E. destruct E as (arg & i1 & Harg & E). apply mmap_inv in Harg.
  destruct (params_preserved args arg (conv_all wf_param _ st args arg
              (fun a i c j Ha Ea => fun_arg_preserved a st i c j Ha Hc Ea) Hargs Harg)) as [Hps Hfa].
  apply bind_inv in E. destruct E as (t & i2 & _ & E). apply bind_inv in E. destruct E as (db & i3 & _ & E).
  apply bind_inv in E. destruct E as (cid & i4 & Hid & E). rewrite conv_id_eq in Hid by exact Hc.
  injection Hid as <- <-.
  eexists. split; [reflexivity|]. unfold py_fsig, py_fname, id_name. cbn [ast_node fst snd].
  destruct (funop_of (concrete_to_python s)); apply ret_inv in E; destruct E as [<- _];
    cbn [fsig_py isfun fun_args]; rewrite Hps; repeat split; assumption.
Qed.
