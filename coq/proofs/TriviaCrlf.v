(** * LF -> CRLF leaves the token stream untouched (used by C14)

    If no scanner call on [s] starts at a carriage return and every string literal of [s] is
    terminated and holds no line feed ([crlf_ok]), then [tokenize (crlf s) = tokenize s]: the
    same tokens with the same positions, or the same lexical error at the same position. *)
From Coq Require Import List Ascii ZArith Bool Lia Arith.
From MambaModel Require Import model.LexTok gen.LexTables model.Lex proofs.LexProps proofs.TotalProps
  model.Trivia proofs.TriviaFuel proofs.TriviaScan proofs.TriviaSim.
Import ListNotations.
Local Open Scope Z_scope.

Lemma crlf_cons_other c r : Ascii.eqb c c_nl = false -> crlf (c :: r) = c :: crlf r.
Proof. intros H. cbn [crlf]. rewrite H. reflexivity. Qed.
Lemma crlf_cons_nl r : crlf (c_nl :: r) = c_cr :: c_nl :: crlf r.
Proof. reflexivity. Qed.

Lemma crlf_app a b : crlf (a ++ b) = crlf a ++ crlf b.
Proof.
  induction a as [|c a IH]; [reflexivity|]. cbn [app crlf]. rewrite IH.
  destruct (Ascii.eqb c c_nl); reflexivity.
Qed.

Lemma crlf_no_nl w : no_nl w = true -> crlf w = w.
Proof.
  induction w as [|c w IH]; [reflexivity|]. rewrite no_nl_cons. intros H.
  apply andb_prop in H as [Hc Hw]. apply negb_true_iff in Hc. cbn [crlf]. rewrite Hc, (IH Hw). reflexivity.
Qed.

Lemma crlf_length s : (length s <= length (crlf s))%nat.
Proof.
  induction s as [|c s IH]; [reflexivity|]. cbn [crlf]. destruct (Ascii.eqb c c_nl); cbn [length]; lia.
Qed.

Lemma crlf_split s : no_nl s = true \/ exists a b, s = a ++ c_nl :: b /\ no_nl a = true.
Proof.
  induction s as [|c s IH]; [left; reflexivity|]. rewrite no_nl_cons.
  destruct (Ascii.eqb_spec c c_nl) as [->|Hc]; [right; exists [], s; split; reflexivity|].
  destruct IH as [-> | (a & b & -> & Ha)]; [left; reflexivity|].
  right. exists (c :: a), b. split; [reflexivity|]. rewrite no_nl_cons, Ha.
  apply Ascii.eqb_neq in Hc. rewrite Hc. reflexivity.
Qed.

Lemma crlf_at_nl a b : no_nl a = true -> crlf (a ++ c_nl :: b) = a ++ c_cr :: c_nl :: crlf b.
Proof. intros H. rewrite crlf_app, (crlf_no_nl a H). reflexivity. Qed.

(** A scanner that stops at a line break and leaves a suffix of its input commutes with [crlf]:
    up to the first line feed the text is the same, and the scanner does not look further. *)
Lemma crlf_natural {X} (G : str -> X * str) :
  (forall a r, hd_eol r = true -> G (a ++ r) = (fst (G a), snd (G a) ++ r)) ->
  (forall a, exists w, a = w ++ snd (G a)) ->
  forall s, G (crlf s) = (fst (G s), crlf (snd (G s))).
Proof.
  intros Happ Hsuf s.
  assert (Hrest : forall a, no_nl a = true -> no_nl (snd (G a)) = true).
  { intros a Ha. destruct (Hsuf a) as [w Hw]. rewrite Hw, no_nl_app in Ha. apply andb_prop in Ha. apply Ha. }
  destruct (crlf_split s) as [Hs | (a & b & -> & Ha)].
  - rewrite (crlf_no_nl s Hs), (crlf_no_nl _ (Hrest s Hs)). apply surjective_pairing.
  - rewrite (crlf_at_nl a b Ha), !Happ by reflexivity. cbn [fst snd].
    rewrite (crlf_at_nl _ b (Hrest a Ha)). reflexivity.
Qed.

Definition mp_pair (tbl : list (str * token)) (s : str) : option token * str :=
  match match_prefix tbl s with Some (t, rest) => (Some t, rest) | None => (None, s) end.

Lemma mp_pair_crlf tbl : forallb (fun wt : str * token => stop_free (fst wt)) tbl = true ->
  forall y, mp_pair tbl (crlf y) = (fst (mp_pair tbl y), crlf (snd (mp_pair tbl y))).
Proof.
  intros Ht. apply crlf_natural.
  - intros a r Hr. unfold mp_pair. rewrite (mp_app r (hd_eol_stop r Hr) tbl a Ht).
    destruct (match_prefix tbl a) as [[t rest]|]; reflexivity.
  - intros a. unfold mp_pair. destruct (match_prefix tbl a) as [[t rest]|] eqn:E; [|exists []; reflexivity].
    apply match_prefix_sound in E as (w & _ & Hw). exists w. exact Hw.
Qed.

Lemma mp_crlf tbl y : forallb (fun wt : str * token => stop_free (fst wt)) tbl = true ->
  match_prefix tbl (crlf y) =
  match match_prefix tbl y with Some (t, rest) => Some (t, crlf rest) | None => None end.
Proof.
  intros Ht. pose proof (mp_pair_crlf tbl Ht y) as H. unfold mp_pair in H.
  destruct (match_prefix tbl (crlf y)) as [[t1 r1]|], (match_prefix tbl y) as [[t2 r2]|];
    cbn [fst snd] in H; inversion H; reflexivity.
Qed.

Lemma tw_crlf p : p c_nl = false -> p c_cr = false ->
  forall s, take_while p (crlf s) = (fst (take_while p s), crlf (snd (take_while p s))).
Proof.
  intros Hnl Hcr. apply crlf_natural.
  - intros a r Hr. apply (tw_app p r a); [apply surjective_pairing|]. intros _.
    destruct r as [|x r]; [exact I|]. cbn [hd_eol] in Hr. unfold is_eolc in Hr.
    apply orb_prop in Hr as [H|H]; apply Ascii.eqb_eq in H; subst x; assumption.
  - intros a. exists (fst (take_while p a)). apply (take_while_split p a), surjective_pairing.
Qed.

Lemma sn_crlf c : forall s,
  scan_number (S (length (crlf s))) [c] [] false false (crlf s)
  = (fst (scan_number (S (length s)) [c] [] false false s),
     crlf (snd (scan_number (S (length s)) [c] [] false false s))).
Proof.
  apply (crlf_natural (fun s => scan_number (S (length s)) [c] [] false false s)).
  - intros a r Hr. apply (sn_app r (hd_eol_stop r Hr)); lia.
  - intros a. destruct (scan_number (S (length a)) [c] [] false false a) as [[[[n e] fl] en] rest] eqn:E.
    apply scan_number_spec in E as (w & Hw & _); [|reflexivity]. exists w. exact Hw.
Qed.

Definition str_ok (c : ascii) (r : str) : bool :=
  match scan c r with
  | SString content _ rest => no_nl content && str_eqb (c :: r) (c_quote :: content ++ c_quote :: rest)
  | _ => true
  end.

Lemma scan_crlf c r :
  Ascii.eqb c_nl c = false -> Ascii.eqb c_cr c = false -> str_ok c r = true ->
  scan c (crlf r) = map_rest crlf (scan c r).
Proof.
  intros Hnl Hcr Hok. unfold str_ok in Hok. unfold scan in *.
  assert (Hnl' : Ascii.eqb c c_nl = false) by (rewrite Ascii.eqb_sym; exact Hnl).
  rewrite (mp_ops_only c (crlf r) Hnl (sw_crnl c _ Hcr)).
  rewrite (mp_ops_only c r Hnl (sw_crnl c _ Hcr)) in *.
  rewrite <- (crlf_cons_other c r Hnl'). rewrite (mp_crlf ops_part (c :: r) ops_stop_free).
  destruct (match_prefix ops_part (c :: r)) as [[t0 rest0]|]; [reflexivity|].
  destruct (Ascii.eqb c c_hash).
  { rewrite (tw_crlf not_eol eq_refl eq_refl r). destruct (take_while not_eol r) as [cm rest]. reflexivity. }
  destruct (Ascii.eqb c c_quote).
  { fold ss0 in *. destruct (scan_string ss0 r) as [st rest] eqn:Hs.
    apply andb_prop in Hok as [Hn Heq]. apply str_eqb_eq in Heq. injection Heq as _ Hr.
    assert (Hc : crlf r = (s_content st ++ [c_quote]) ++ crlf rest).
    { rewrite Hr at 1. rewrite crlf_app, (crlf_no_nl _ Hn), (crlf_cons_other c_quote rest eq_refl).
      rewrite <- app_assoc. reflexivity. }
    rewrite Hc. rewrite (ss_replace (s_content st ++ [c_quote]) ss0 st rest); [reflexivity | |].
    - rewrite <- app_assoc. cbn [app]. rewrite <- Hr. exact Hs.
    - rewrite app_length. cbn. lia. }
  destruct (Ascii.eqb c c_sp); [reflexivity|].
  destruct (Ascii.eqb c c_cr); [reflexivity|].
  destruct (Ascii.eqb c (ch 33)); [reflexivity|].
  destruct (is_digit c).
  { rewrite (sn_crlf c r).
    destruct (scan_number (S (length r)) [c] [] false false r) as [[[[number exp] float] e_num] rest].
    reflexivity. }
  destruct (is_id_start c); [|reflexivity].
  rewrite (tw_crlf is_id_char eq_refl eq_refl r). destruct (take_while is_id_char r) as [w rest]. reflexivity.
Qed.

Fixpoint crlf_ok (fuel : nat) (s : str) : bool :=
  match fuel with
  | O => true
  | S fuel =>
      match s with
      | [] => true
      | c :: r =>
          negb (Ascii.eqb c_cr c) && str_ok c r &&
          match scan_rest (scan c r) with Some rest => crlf_ok fuel rest | None => true end
      end
  end.

Lemma crlf_loop fuel : forall s st,
  crlf_ok fuel s = true -> (length s < fuel)%nat -> lex_from st (crlf s) = lex_from st s.
Proof.
  induction fuel as [|fuel IH]; intros s st Hok Hlen; [lia|].
  destruct s as [|c r]; [reflexivity|].
  cbn [crlf_ok length] in *. apply andb_prop in Hok as [Hok Hrest]. apply andb_prop in Hok as [Hcr Hstr].
  apply negb_true_iff in Hcr.
  destruct (Ascii.eqb c_nl c) eqn:Hnl.
  - apply Ascii.eqb_eq in Hnl. subst c. rewrite scan_nl in Hrest.
    rewrite crlf_cons_nl, lex_from_crnl, lex_from_nl. apply IH; [exact Hrest | lia].
  - assert (Hnl' : Ascii.eqb c c_nl = false) by (rewrite Ascii.eqb_sym; exact Hnl).
    rewrite (crlf_cons_other c r Hnl'), !lex_from_step.
    rewrite (step_map crlf _ c r (crlf r) st (scan_crlf c r Hnl Hcr Hstr)).
    pose proof (crlf_length r) as Hl.
    rewrite (step_ext (direct (S (length (crlf r)))) (direct (S (length r))) c r st)
      by (intros e He; apply fuel_irrel; lia).
    destruct (step (direct (S (length r))) c r st) as [e| |rest st1 out] eqn:Hst; try reflexivity.
    cbn [map_step]. rewrite (step_next_rest _ _ _ _ _ _ _ Hst) in Hrest.
    apply step_next_len in Hst. rewrite IH; [reflexivity | exact Hrest | lia].
Qed.

Theorem crlf_same s : crlf_ok (run_fuel s) s = true -> tokenize (crlf s) = tokenize s.
Proof.
  intros Hok. pose proof (crlf_loop _ s state0 Hok ltac:(unfold run_fuel; lia)) as H.
  unfold tokenize, tokenize_fuel, lex_from in *.
  rewrite (loop_fuel _ (crlf s)), (loop_fuel _ s), H by lia. reflexivity.
Qed.
