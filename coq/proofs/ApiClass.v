(** * C17 - what [assemble_class] (the model of [extract_class]) does to the methods of a class body

    The body statements are keyed by name in a map, the constructor is synthesised and put back
    under the key [__init__], and the values are sorted by their (slot, kind) position.  Provided no
    statement shares its key with a function of the body ([kok]),
    - every function other than [__init__] comes out exactly once, in source order ([assemble_methods]);
    - the [__init__] of the class is the synthesised one when there is one, else the explicit one ([assemble_ctor]). *)
From Coq Require Import List String Bool Arith Lia.
From MambaModel Require Import model.Core gen.Names model.Convert model.Api proofs.ConvertProps proofs.ApiBase.
Import ListNotations.
Local Open Scope string_scope.
Local Open Scope list_scope.

Definition skey (s : core) : core := fst (stmt_entry 0 s).
Lemma stmt_entry_key i s : fst (stmt_entry i s) = skey s. Proof. destruct s; reflexivity. Qed.
Lemma stmt_entry_pos_fun i s : isfun s = true -> fst (snd (stmt_entry i s)) = (i + 2, 2).
Proof. destruct s; try discriminate; reflexivity. Qed.
Lemma skey_fun s f : fsig_py s = Some f -> skey s = Id (fst f).
Proof. destruct s; try discriminate; intros H; injection H as <-; reflexivity. Qed.

Lemma key_eqb_lit a b :
  key_eqb a b = match id_lit a, id_lit b with Some x, Some y => String.eqb x y | _, _ => false end.
Proof. destruct a; try reflexivity. destruct b; reflexivity. Qed.
Lemma key_eqb_sym a b : key_eqb a b = key_eqb b a.
Proof. rewrite !key_eqb_lit. destruct (id_lit a), (id_lit b); try reflexivity. apply String.eqb_sym. Qed.
Lemma key_eqb_trans a b c : key_eqb a b = true -> key_eqb b c = key_eqb a c.
Proof.
  rewrite !key_eqb_lit. destruct (id_lit a), (id_lit b); try discriminate.
  intros H. apply String.eqb_eq in H. subst. reflexivity.
Qed.

Fixpoint entries_from (i : nat) (l : list core) : list entry :=
  match l with [] => [] | s :: r => stmt_entry i s :: entries_from (S i) r end.
Lemma body_entries_cons i s r m :
  body_entries i (s :: r) m = body_entries (S i) r (hm_insert (fst (stmt_entry i s)) (snd (stmt_entry i s)) m).
Proof. cbn [body_entries]. destruct (stmt_entry i s). reflexivity. Qed.

Lemma entries_stmts l : forall i, map (fun e => snd (snd e)) (entries_from i l) = l.
Proof. induction l as [|s l IH]; intros i; [reflexivity|]. cbn [entries_from map]. rewrite stmt_entry_stmt, IH. reflexivity. Qed.

Lemma in_entries e l : forall i, In e (entries_from i l) -> exists k s, In s l /\ e = stmt_entry k s.
Proof.
  induction l as [|s l IH]; intros i; [intros []|]. cbn [entries_from]. intros [<- | H].
  - exists i, s. split; [left; reflexivity | reflexivity].
  - destruct (IH _ H) as (k & s' & Hs & ->). exists k, s'. split; [right; exact Hs | reflexivity].
Qed.

Section Filter.
  Variable P : (nat * nat) * core -> bool.

  Lemma filter_hm_insert k v m :
    (forall e, In e m -> P v || P (snd e) = true -> key_eqb k (fst e) = false) ->
    filter P (map snd (hm_insert k v m)) = filter P (map snd m) ++ (if P v then [v] else []).
  Proof.
    induction m as [|[k' v'] m IH]; intros H; cbn [hm_insert map filter fst snd]; [destruct (P v); reflexivity|].
    destruct (key_eqb k k') eqn:E.
    - (* the entry replaced and the new one are both outside [P] *)
      destruct (P v || P v') eqn:Ev; [specialize (H (k', v') (or_introl eq_refl) Ev); cbn [fst] in H; congruence|].
      apply orb_false_elim in Ev. destruct Ev as [Pv Pv']. cbn [map filter snd]. rewrite Pv, Pv', app_nil_r. reflexivity.
    - cbn [map filter snd]. rewrite IH by (intros e He; apply H; right; exact He). destruct (P v'); reflexivity.
  Qed.

  Fixpoint kok_e (es : list entry) : Prop :=
    match es with
    | [] => True
    | e :: r => (forall e', In e' r -> P (snd e) || P (snd e') = true -> key_eqb (fst e') (fst e) = false) /\ kok_e r
    end.

  Lemma filter_entries cs : forall i m,
    kok_e (entries_from i cs) ->
    (forall e e', In e (entries_from i cs) -> In e' m -> P (snd e) || P (snd e') = true -> key_eqb (fst e) (fst e') = false) ->
    filter P (map snd (body_entries i cs m)) = filter P (map snd m) ++ filter P (map snd (entries_from i cs)).
  Proof.
    induction cs as [|s cs IH]; intros i m Hk Hm; [cbn [body_entries entries_from map filter]; rewrite app_nil_r; reflexivity|].
    rewrite body_entries_cons. cbn [entries_from kok_e map filter] in *. destruct Hk as [Hx Hk]. rewrite IH; [|exact Hk|].
    - rewrite filter_hm_insert by (intros e He; apply (Hm _ e (or_introl eq_refl) He)).
      rewrite <- app_assoc. destruct (P (snd (stmt_entry i s))); reflexivity.
    - intros e e' He He' Hp. apply hm_insert_inv in He'. destruct He' as [-> | He'].
      + cbn [fst snd] in *. apply Hx; [exact He|]. rewrite orb_comm. exact Hp.
      + apply Hm; [right; exact He | exact He' | exact Hp].
  Qed.
End Filter.

Lemma kok_e_weaken (P Q : (nat * nat) * core -> bool) es :
  (forall v, Q v = true -> P v = true) -> kok_e P es -> kok_e Q es.
Proof.
  intros HPQ. induction es as [|e es IH]; [trivial|]. intros [H1 H2]. split; [|apply IH, H2].
  intros e' He' Hq. apply H1; [exact He'|]. apply orb_true_iff in Hq. apply orb_true_iff.
  destruct Hq as [Hq | Hq]; [left | right]; apply HPQ, Hq.
Qed.

Fixpoint uniq (m : list entry) : Prop :=
  match m with [] => True | e :: r => (forall e', In e' r -> key_eqb (fst e) (fst e') = false) /\ uniq r end.

Lemma uniq_insert k v m : uniq m -> uniq (hm_insert k v m).
Proof.
  induction m as [|[k' v'] m IH]; cbn [hm_insert]; [intros _; split; [intros e []|exact I]|].
  intros [H1 H2]. destruct (key_eqb k k') eqn:E.
  - split; [|exact H2]. intros e' He'. cbn [fst]. rewrite <- (key_eqb_trans _ _ _ E). apply (H1 e' He').
  - split; [|apply IH, H2]. intros e' He'. apply hm_insert_inv in He'. destruct He' as [-> | He'].
    + cbn [fst]. rewrite key_eqb_sym. exact E.
    + apply (H1 e' He').
Qed.

Lemma body_uniq cs : forall i m, uniq m -> uniq (body_entries i cs m).
Proof. induction cs as [|s cs IH]; intros i m H; [exact H|]. rewrite body_entries_cons. apply IH, uniq_insert, H. Qed.

Lemma hm_get_key k m v : hm_get k m = Some v -> exists k', In (k', v) m /\ key_eqb k k' = true.
Proof.
  induction m as [|[k0 v0] r IH]; cbn [hm_get]; [discriminate|]. destruct (key_eqb k k0) eqn:E; intros H.
  - injection H as ->. exists k0. split; [left; reflexivity | exact E].
  - destruct (IH H) as (k' & Hin & Hk). exists k'. split; [right; exact Hin | exact Hk].
Qed.

Lemma hm_get_uniq k k' v m : uniq m -> In (k', v) m -> key_eqb k k' = true -> hm_get k m = Some v.
Proof.
  induction m as [|[k0 v0] r IH]; intros Hu Hin Hk; [destruct Hin|]. destruct Hu as [H0 Hu]. cbn [hm_get].
  destruct Hin as [Hin | Hin]; [injection Hin as -> ->; rewrite Hk; reflexivity|].
  destruct (key_eqb k k0) eqn:E; [|exact (IH Hu Hin Hk)].
  specialize (H0 _ Hin). cbn [fst] in H0. rewrite (key_eqb_trans _ _ _ E) in H0. congruence.
Qed.

Lemma filter_none {X} (P : X -> bool) l : (forall x, In x l -> P x = false) -> filter P l = [].
Proof.
  induction l as [|x l IH]; intros H; [reflexivity|]. cbn [filter]. rewrite (H x (or_introl eq_refl)).
  apply IH. intros y Hy. apply H. right. exact Hy.
Qed.

Lemma filter_insert_only (Q : (nat * nat) * core -> bool) k v m :
  uniq m -> Q v = true -> (forall e, In e m -> Q (snd e) = true -> key_eqb k (fst e) = true) ->
  filter Q (map snd (hm_insert k v m)) = [v].
Proof.
  induction m as [|[k' v'] m IH]; intros Hu Hv Hq; cbn [hm_insert map filter snd]; [rewrite Hv; reflexivity|].
  destruct Hu as [Hu1 Hu2]. destruct (key_eqb k k') eqn:E.
  - cbn [map filter snd]. rewrite Hv. f_equal. apply filter_none. intros x Hx.
    apply in_map_iff in Hx. destruct Hx as (e & <- & He).
    destruct (Q (snd e)) eqn:Eq; [|reflexivity].
    pose proof (Hq e (or_intror He) Eq) as H1. pose proof (Hu1 e He) as H2. cbn [fst] in H2.
    rewrite <- (key_eqb_trans _ _ _ E) in H1. congruence.
  - cbn [map filter snd].
    assert (Q v' = false) as ->.
    { destruct (Q v') eqn:Eq; [|reflexivity]. specialize (Hq (k', v') (or_introl eq_refl) Eq). cbn [fst] in Hq. congruence. }
    apply IH; [exact Hu2 | exact Hv|]. intros e He. apply Hq. right. exact He.
Qed.

Lemma pos_ltb_spec p q :
  pos_ltb p q = true <-> fst p < fst q \/ (fst p = fst q /\ snd p < snd q).
Proof.
  unfold pos_ltb. rewrite orb_true_iff, andb_true_iff, !Nat.ltb_lt, Nat.eqb_eq. reflexivity.
Qed.

Lemma filter_insert P e l :
  (P e = true -> forall y, In y l -> P y = true -> pos_ltb (fst e) (fst y) = true) ->
  filter P (insert_by_pos e l) = (if P e then [e] else []) ++ filter P l.
Proof.
  induction l as [|y l IH]; intros H; cbn [insert_by_pos]; [cbn [filter]; destruct (P e); reflexivity|].
  destruct (pos_ltb (fst e) (fst y)) eqn:E; cbn [filter]; [destruct (P e); reflexivity|].
  rewrite IH by (intros He z Hz; apply (H He); right; exact Hz).
  destruct (P y) eqn:Ey; [|reflexivity]. destruct (P e) eqn:Ee; [|reflexivity].
  rewrite (H eq_refl y (or_introl eq_refl) Ey) in E. discriminate E.
Qed.

Fixpoint slots_from (n : nat) (l : list ((nat * nat) * core)) : Prop :=
  match l with [] => True | x :: r => n <= fst (fst x) /\ slots_from (S (fst (fst x))) r end.
Lemma slots_from_in l : forall n x, slots_from n l -> In x l -> n <= fst (fst x).
Proof.
  induction l as [|y l IH]; intros n x; [intros _ []|]. cbn [slots_from]. intros [H1 H2] [<- | Hx]; [exact H1|].
  specialize (IH _ x H2 Hx). lia.
Qed.

Lemma filter_sort P l : forall n,
  slots_from n (filter P l) -> filter P (sort_by_pos l) = filter P l.
Proof.
  induction l as [|x l IH]; intros n Hs; [reflexivity|]. cbn [sort_by_pos fold_right].
  change (fold_right insert_by_pos [] l) with (sort_by_pos l). cbn [filter] in *.
  destruct (P x) eqn:Ex.
  - destruct Hs as [_ Hs]. rewrite filter_insert, Ex, (IH _ Hs); [reflexivity|].
    intros _ y Hy Py. apply (proj1 (sort_by_pos_in _ _)) in Hy.
    pose proof (slots_from_in _ _ y Hs (proj2 (filter_In _ _ _) (conj Hy Py))). apply pos_ltb_spec. lia.
  - rewrite filter_insert, Ex, (IH _ Hs); [reflexivity | congruence].
Qed.

Lemma slots_from_filter_entries P l : forall i n,
  n <= i + 2 -> (forall v, P v = true -> isfun (snd v) = true) ->
  slots_from n (filter P (map snd (entries_from i l))).
Proof.
  induction l as [|s l IH]; intros i n Hn HP; [exact I|]. cbn [entries_from map filter].
  destruct (P (snd (stmt_entry i s))) eqn:E; [|apply IH; [lia | exact HP]].
  cbn [slots_from]. pose proof (HP _ E) as Hf. rewrite stmt_entry_stmt in Hf.
  rewrite (stmt_entry_pos_fun i s Hf). cbn [fst]. split; [exact Hn|]. apply IH; [lia | exact HP].
Qed.

Definition is_meth (s : core) : bool := match fsig_py s with Some f => negb (is_init f) | None => false end.
Definition is_inits (s : core) : bool := match fsig_py s with Some f => is_init f | None => false end.

Lemma fsig_isfun s f : fsig_py s = Some f -> isfun s = true.
Proof. destruct s; try discriminate; reflexivity. Qed.
Lemma is_meth_isfun s : is_meth s = true -> isfun s = true.
Proof. unfold is_meth. destruct (fsig_py s) eqn:E; [intros _; exact (fsig_isfun _ _ E) | discriminate]. Qed.
Lemma is_inits_isfun s : is_inits s = true -> isfun s = true.
Proof. unfold is_inits. destruct (fsig_py s) eqn:E; [intros _; exact (fsig_isfun _ _ E) | discriminate]. Qed.
Lemma init_key s f : fsig_py s = Some f -> key_eqb (Id n_init) (skey s) = is_init f.
Proof. intros H. rewrite (skey_fun _ _ H). apply String.eqb_sym. Qed.
Lemma is_inits_key s : is_inits s = true -> key_eqb (Id n_init) (skey s) = true.
Proof. unfold is_inits. destruct (fsig_py s) as [f|] eqn:E; [|discriminate]. rewrite (init_key _ _ E). intros H. exact H. Qed.
Lemma is_meth_key s : is_meth s = true -> key_eqb (Id n_init) (skey s) = false.
Proof. unfold is_meth. destruct (fsig_py s) as [f|] eqn:E; [|discriminate]. rewrite (init_key _ _ E). apply negb_true_iff. Qed.

Lemma funs_filter_meth L : filter (fun f => negb (is_init f)) (funs_py L) = funs_py (filter is_meth L).
Proof.
  induction L as [|a L IH]; [reflexivity|]. unfold funs_py, is_meth in *. cbn [flat_map filter].
  destruct (fsig_py a) as [f|] eqn:E; cbn [app filter].
  - destruct (negb (is_init f)); cbn [flat_map]; rewrite ?E; cbn [app]; rewrite IH; reflexivity.
  - exact IH.
Qed.
Lemma funs_find_init L : find is_init (funs_py L) = hd_error (funs_py (filter is_inits L)).
Proof.
  induction L as [|a L IH]; [reflexivity|]. unfold funs_py, is_inits in *. cbn [flat_map filter].
  destruct (fsig_py a) as [f|] eqn:E; cbn [app find].
  - destruct (is_init f); cbn [flat_map]; rewrite ?E; [reflexivity | exact IH].
  - exact IH.
Qed.

Definition kok (cs : list core) : Prop := kok_e (fun v => isfun (snd v)) (entries_from 0 cs).

Definition old_init (cs : list core) : option core :=
  match hm_get (Id n_init) (body_entries 0 cs []) with Some (_, f) => Some f | None => None end.

Lemma filter_map_snd {X Y} (P : Y -> bool) (l : list (X * Y)) :
  filter P (map snd l) = map snd (filter (fun v => P (snd v)) l).
Proof. induction l as [|x l IH]; [reflexivity|]. cbn [map filter]. destruct (P (snd x)); cbn [map]; rewrite IH; reflexivity. Qed.

Lemma filter_body (p : core -> bool) vs n :
  p Pass = false -> slots_from n (filter (fun v => p (snd v)) vs) ->
  filter p (let l := map snd (sort_by_pos vs) in match l with [] => [Pass] | _ => l end)
  = map snd (filter (fun v => p (snd v)) vs).
Proof.
  intros H Hs. etransitivity; [|apply f_equal, (filter_sort _ _ _ Hs)]. etransitivity; [|apply filter_map_snd]. cbv zeta.
  destruct (map snd (sort_by_pos vs)); [cbn [filter]; rewrite H|]; reflexivity.
Qed.

Lemma body_funs (p : core -> bool) cs vs :
  (forall s, p s = true -> isfun s = true) ->
  filter (fun v => p (snd v)) vs = filter (fun v => p (snd v)) (map snd (entries_from 0 cs)) ->
  filter p (let l := map snd (sort_by_pos vs) in match l with [] => [Pass] | _ => l end) = filter p cs.
Proof.
  intros Hp Hvs. assert (H0 : p Pass = false) by (destruct (p Pass) eqn:E; [discriminate (Hp _ E) | reflexivity]).
  rewrite (filter_body p vs 2 H0); rewrite Hvs; [|apply (slots_from_filter_entries _ _ 0 2 (le_n 2)); intros v; apply Hp].
  rewrite <- filter_map_snd, map_map. apply f_equal, entries_stmts.
Qed.

Lemma assemble_unfold cs ca ps pn body :
  assemble_class cs ca ps = Some (pn, body) ->
  exists m', body = (let l := map snd (sort_by_pos (map snd m')) in match l with [] => [Pass] | _ => l end) /\
             pn = flat_map (fun o => match o with Some x => [x] | None => [] end) (map parent_name ps) /\
             existsb (fun o => match o with None => true | Some _ => false end) (map parent_name ps) = false /\
             match class_init (old_init cs) ca ps with
             | Some ni => exists pos, m' = hm_insert (Id n_init) (pos, ni) (body_entries 0 cs [])
             | None => m' = body_entries 0 cs []
             end.
Proof.
  unfold assemble_class, old_init. cbv zeta.
  set (m := body_entries 0 cs []).
  set (oi := match hm_get (Id n_init) m with Some (_, f) => Some f | None => None end).
  destruct (existsb _ (map parent_name ps)) eqn:Ex; [discriminate|].
  intros H. injection H as <- <-.
  destruct (class_init oi ca ps) as [ni|].
  - eexists. split; [reflexivity|]. split; [reflexivity|]. split; [reflexivity|]. eexists. reflexivity.
  - exists m. repeat split; reflexivity.
Qed.

Definition first_is_self_core (args : list core) : bool :=
  match args with FunArg _ (Id lit) _ _ :: _ => String.eqb lit n_self_ | _ => false end.

Definition init_args (o : option core) (ca : list core) : list core :=
  match o with Some (FunDef _ _ arg _ _) => arg | Some _ => [] | None => ca end.

Lemma class_init_sig o ca ps ni :
  class_init o ca ps = Some ni ->
  fsig_py ni = Some (n_init, map param_py (let args := init_args o ca in
                                            if first_is_self_core args then args else Id n_self_ :: args)).
Proof.
  rewrite class_init_eq. cbv zeta.
  assert (Ha : fst (init_parts o ca (map fst (map parent_init ps))) = init_args o ca) by (destruct o as [[]|]; reflexivity).
  destruct (init_parts _ _ _) as [a s]. cbn [fst] in Ha. subst a. unfold mk_init.
  destruct (s ++ _); [discriminate|]. intros H. injection H as <-. reflexivity.
Qed.

Lemma class_init_with_self o ca ps ni :
  class_init o ca ps = Some ni -> forallb funarg_id (init_args o ca) = true ->
  fsig_py ni = Some (n_init, with_self (map param_py (init_args o ca))).
Proof.
  intros H Hf. rewrite (class_init_sig _ _ _ _ H). cbv zeta. set (args := init_args o ca) in *.
  assert (Hs : first_is_self_core args = first_is_self (map param_py args)).
  { destruct args as [|a r]; [reflexivity|]. cbn [forallb] in Hf. apply andb_prop in Hf. destruct Hf as [Hf _].
    destruct a; try discriminate Hf. destruct a; try discriminate Hf. reflexivity. }
  unfold with_self. rewrite <- Hs. destruct (first_is_self_core args); reflexivity.
Qed.

Lemma class_init_is_init o ca ps ni : class_init o ca ps = Some ni -> is_inits ni = true /\ is_meth ni = false.
Proof. intros H. unfold is_inits, is_meth. rewrite (class_init_sig _ _ _ _ H). split; reflexivity. Qed.

Lemma somes_all (l : list (option core)) :
  existsb (fun o => match o with None => true | Some _ => false end) l = false ->
  l = map Some (flat_map (fun o => match o with Some x => [x] | None => [] end) l).
Proof.
  induction l as [|o l IH]; [reflexivity|]. cbn [existsb]. intros Hex.
  apply orb_false_elim in Hex. destruct Hex as [Ho Hl]. destruct o; [|discriminate].
  cbn [flat_map app map]. rewrite <- (IH Hl). reflexivity.
Qed.

Lemma entries_funs P cs :
  (forall v, P v = true -> isfun (snd v) = true) -> kok cs ->
  filter P (map snd (body_entries 0 cs [])) = filter P (map snd (entries_from 0 cs)).
Proof.
  intros HP Hk. refine (filter_entries P cs 0 [] (kok_e_weaken (fun v => isfun (snd v)) P _ HP Hk) _). intros e e' _ [].
Qed.

Lemma body_entry cs e : In e (body_entries 0 cs []) -> fst e = skey (snd (snd e)) /\ In (snd (snd e)) cs.
Proof.
  intros H. destruct (body_entries_in _ _ _ _ H) as [[]|(k & s & Hs & ->)]. rewrite stmt_entry_key, stmt_entry_stmt.
  split; [reflexivity | exact Hs].
Qed.

Section Assemble.
  Variables (cs ca ps pn body : list core).
  Hypothesis Has : assemble_class cs ca ps = Some (pn, body).
  Hypothesis Hk : kok cs.

  Lemma assemble_methods : filter is_meth body = filter is_meth cs.
  Proof.
    destruct (assemble_unfold _ _ _ _ _ Has) as (m' & -> & _ & _ & Hm').
    apply (body_funs is_meth); [exact is_meth_isfun|].
    rewrite <- (entries_funs _ cs (fun v => is_meth_isfun (snd v)) Hk).
    destruct (class_init (old_init cs) ca ps) as [ni|] eqn:Eci; [|subst m'; reflexivity].
    (* the synthesised constructor is not a method, and no method has its key *)
    destruct Hm' as (pos & ->). destruct (class_init_is_init _ _ _ _ Eci) as [_ Hni].
    rewrite filter_hm_insert; cbn [snd]; rewrite Hni; [apply app_nil_r|].
    intros e He Hp. rewrite (proj1 (body_entry _ _ He)). apply is_meth_key, Hp.
  Qed.

  Lemma assemble_ctor :
    find is_init (funs_py body) =
    match class_init (old_init cs) ca ps with Some ni => fsig_py ni | None => find is_init (funs_py cs) end.
  Proof.
    destruct (assemble_unfold _ _ _ _ _ Has) as (m' & -> & _ & _ & Hm'). rewrite funs_find_init.
    destruct (class_init (old_init cs) ca ps) as [ni|] eqn:Eci.
    - destruct Hm' as (pos & ->). destruct (class_init_is_init _ _ _ _ Eci) as [Hni _].
      assert (Hf : filter (fun v => is_inits (snd v)) (map snd (hm_insert (Id n_init) (pos, ni) (body_entries 0 cs [])))
                   = [(pos, ni)]).
      { apply filter_insert_only; [exact (body_uniq cs 0 [] I) | exact Hni|].
        intros e He Hq. rewrite (proj1 (body_entry _ _ He)). apply is_inits_key, Hq. }
      rewrite (filter_body is_inits _ 0 eq_refl), Hf by (rewrite Hf; split; [apply Nat.le_0_l | exact I]).
      unfold funs_py. cbn [map snd flat_map]. rewrite (class_init_sig _ _ _ _ Eci). reflexivity.
    - subst m'. rewrite funs_find_init. do 2 f_equal. apply (body_funs is_inits); [exact is_inits_isfun|].
      exact (entries_funs _ cs (fun v => is_inits_isfun (snd v)) Hk).
  Qed.
End Assemble.

Lemma assemble_parents cs ca ps pn body :
  assemble_class cs ca ps = Some (pn, body) -> map parent_name ps = map Some pn.
Proof. intros Has. destruct (assemble_unfold _ _ _ _ _ Has) as (m' & _ & -> & Hex & _). apply somes_all, Hex. Qed.

Lemma old_init_none cs : (forall c, In c cs -> key_eqb (Id n_init) (skey c) = false) -> old_init cs = None.
Proof.
  intros H. unfold old_init. destruct (hm_get _ _) as [[p f]|] eqn:E; [|reflexivity].
  destruct (hm_get_key _ _ _ E) as (k' & Hin & Hk). destruct (body_entry _ _ Hin) as [Hk' Hs]. cbn [fst snd] in Hk', Hs.
  rewrite Hk', (H f Hs) in Hk. discriminate Hk.
Qed.

Lemma old_init_fun cs c : kok cs -> In c cs -> isfun c = true -> skey c = Id n_init -> old_init cs = Some c.
Proof.
  intros Hk Hin Hf Hkey. rewrite <- (entries_stmts cs 0) in Hin. apply in_map_iff in Hin. destruct Hin as (e0 & <- & Hin).
  assert (Hv : In (snd e0) (filter (fun v => isfun (snd v)) (map snd (body_entries 0 cs [])))).
  { rewrite (entries_funs _ cs (fun v H => H) Hk). apply filter_In. split; [apply in_map, Hin | exact Hf]. }
  apply filter_In in Hv. destruct Hv as [Hv _]. apply in_map_iff in Hv. destruct Hv as ([k v] & Hv & He). cbn [snd] in Hv. subst v.
  pose proof (proj1 (body_entry _ _ He)) as Hk'. cbn [fst snd] in Hk'. rewrite Hkey in Hk'. subst k.
  unfold old_init. rewrite (hm_get_uniq (Id n_init) _ _ _ (body_uniq cs 0 [] I) He (String.eqb_refl _)). destruct (snd e0). reflexivity.
Qed.

Lemma class_init_none_iff ca ps :
  forallb funarg_id ca = true -> (class_init None ca ps = None <-> ca = [] /\ ps = []).
Proof.
  intros Hca. unfold class_init. cbv zeta. split.
  - destruct ps as [|p ps].
    + cbn [map app]. destruct ca as [|a ca]; [intros _; split; reflexivity|].
      cbn [forallb] in Hca. apply andb_prop in Hca. destruct Hca as [Ha _].
      destruct a; try discriminate Ha. cbn [flat_map app filter existsb negb map]. discriminate.
    + cbn [map fst app]. discriminate.
  - intros [-> ->]. reflexivity.
Qed.
