(** * Fuel of the lexer's main loop (used by C14)

    Any fuel above the length of the input gives the same answer ([fuel_irrel], [loop_fuel]):
    [lex_from] is that answer. *)
From Coq Require Import List Ascii ZArith Bool Lia Arith.
From MambaModel Require Import model.LexTok gen.LexTables model.Lex proofs.LexProps proofs.TotalProps.
Import ListNotations.
Local Open Scope Z_scope.

Definition lres := ((state * list tl) + (cpos * lexerr) + unit)%type.

Lemma direct_O s : direct 0 s = inr tt.
Proof. reflexivity. Qed.

Definition with_acc (acc : list tl) (x : lres) : lres :=
  match x with
  | inl (inl (st', out)) => inl (inl (st', acc ++ out))
  | other => other
  end.

Lemma loop_acc fuel : forall s st acc, tok_loop fuel s st acc = with_acc acc (tok_loop fuel s st []).
Proof.
  induction fuel as [|fuel IH]; intros s st acc; [rewrite !tok_loop_O; reflexivity|].
  destruct s as [|c r].
  - rewrite !tok_loop_nil. cbn. rewrite app_nil_r. reflexivity.
  - rewrite !tok_loop_step. destruct (step (direct fuel) c r st) as [e| |rest st' out]; try reflexivity.
    rewrite (IH rest st' (acc ++ out)), (IH rest st' ([] ++ out)). cbn [app].
    destruct (tok_loop fuel rest st' []) as [[[st2 o2]|e]|u]; cbn; try reflexivity.
    rewrite app_assoc. reflexivity.
Qed.

Lemma nest_fold_ext d1 d2 p exprs :
  Forall (fun oe : Z * str => d1 (snd oe) = d2 (snd oe)) exprs ->
  forall a, fold_left (nest_step d1 p) exprs a = fold_left (nest_step d2 p) exprs a.
Proof.
  induction 1 as [|oe ex H _ IH]; intros a; [reflexivity|]. cbn [fold_left]. rewrite IH.
  f_equal. unfold nest_step. rewrite H. reflexivity.
Qed.

(** [step] consults [d] only on the expressions of the string it scans, and these are short. *)
Lemma step_ext d1 d2 c r st :
  (forall e, (length e + 2 <= length r)%nat -> d1 e = d2 e) -> step d1 c r st = step d2 c r st.
Proof.
  intros H. unfold step. destruct (scan c r) as [t rest | content exprs rest | rest | e] eqn:Hs; try reflexivity.
  apply scan_string_exprs_short in Hs as (Hlen & Hall & _). unfold nest_all.
  rewrite (nest_fold_ext d1 d2 (pos st) exprs); [reflexivity|].
  revert Hall. apply Forall_impl. intros oe Hoe. apply H. unfold str in *. lia.
Qed.

Lemma step_next_len d c r st rest st' out :
  step d c r st = Next rest st' out -> (length rest <= length r)%nat.
Proof.
  intros H. pose proof (scan_consumes c r) as Hc.
  apply step_cases in H as [(Hs & _) | [(Hs & _) | (t & inn & _ & Hs & _)]]; [rewrite Hs in Hc; exact Hc..|].
  destruct (scan c r); inversion Hs; subst; exact Hc.
Qed.

(** Above the bound of [loop_total] the fuel does not matter: the nested runs are on shorter
    texts, so their fuel is above their bound as well. *)
Lemma fuel_irrel f1 : forall f2,
  (forall s st acc, (length s < f1)%nat -> (length s < f2)%nat -> tok_loop f1 s st acc = tok_loop f2 s st acc)
  /\ (forall s, (length s + 1 < f1)%nat -> (length s + 1 < f2)%nat -> direct f1 s = direct f2 s).
Proof.
  induction f1 as [|f1 IH]; intros f2; [split; intros; lia|].
  destruct f2 as [|f2]; [split; intros; lia|]. destruct (IH f2) as [IHl IHd].
  split.
  - intros [|c r] st acc H1 H2; [rewrite !tok_loop_nil; reflexivity|]. cbn [length] in *.
    rewrite !tok_loop_step, (step_ext (direct f1) (direct f2) c r st) by (intros e He; apply IHd; lia).
    destruct (step (direct f2) c r st) as [e| |rest st' out] eqn:Hs; try reflexivity.
    apply step_next_len in Hs. apply IHl; lia.
  - intros s H1 H2. rewrite !direct_S, (IHl s state0 []) by lia. reflexivity.
Qed.

Lemma loop_fuel2 f1 f2 s st acc :
  (length s < f1)%nat -> (length s < f2)%nat -> tok_loop f1 s st acc = tok_loop f2 s st acc.
Proof. apply fuel_irrel. Qed.

Lemma loop_fuel fuel s st acc :
  (length s < fuel)%nat -> tok_loop fuel s st acc = tok_loop (S (length s)) s st acc.
Proof. intros H. apply loop_fuel2; [exact H | lia]. Qed.

(** The run from [st] on [s] with fuel that suffices; every fuel above [length s] gives it. *)
Definition lex_from (st : state) (s : str) : lres := tok_loop (S (length s)) s st [].

Lemma lex_from_fuel F s st acc :
  (length s < F)%nat -> tok_loop F s st acc = with_acc acc (lex_from st s).
Proof. intros H. rewrite loop_acc, (loop_fuel F) by exact H. reflexivity. Qed.

Lemma lex_from_nil st : lex_from st [] = inl (inl (st, [])).
Proof. apply tok_loop_nil. Qed.
