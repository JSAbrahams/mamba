(** * C16: the two inductions over [conv] - how the import record changes ([conv_steps]), and that it
      provides what the converted tree needs ([conv_covers_all]) *)
From Coq Require Import List String Bool Arith Lia.
From MambaModel Require Import model.Core gen.Names model.Convert proofs.ConvUnfold proofs.ConvertProps
  proofs.ImportsProps proofs.ImportsNeeds proofs.ImportsClass.
Import ListNotations.
Local Open Scope string_scope.
Local Open Scope list_scope.

Definition gen_froms : list (string * string) :=
  map (pair "typing") ("NewType" :: typing_support) ++ [("abc", "ABC"); ("abc", "abstractmethod")].

Lemma nm_adds_support : forall n, incl (nm_adds n) typing_support.
Proof.
  assert (Hc : forall {X} (h : X -> list string) l, Forall (fun x => incl (h x) typing_support) l ->
                 incl (List.concat (map h l)) typing_support).
  { intros X h l. induction 1 as [|x l Hx _ IH]; [intros q []|]. cbn [map List.concat]. apply incl_app; assumption. }
  apply (nm_ind2 (fun n => incl (nm_adds n) typing_support) (fun t => incl (tn_adds t) typing_support)).
  - intros msteps H. destruct msteps as [|t [|t2 r]]; [intros q [] | inversion H; assumption |].
    apply incl_cons; [in_list | apply (Hc _ tn_adds), H].
  - intros b name gs H. pose proof (Hc _ nm_adds gs H) as Hgs. cbn [tn_adds tn_adds_with].
    apply incl_app; [destruct b; [apply incl_cons; [in_list | intros q []] | intros q []]|].
    unfold variant_adds. destruct (String.eqb name n_tuple_m); [apply incl_cons; [in_list | exact Hgs]|].
    destruct (String.eqb name n_callable_m).
    + apply incl_cons; [in_list|]. intros q Hq. apply Hgs.
      destruct gs as [|a [|r rest]]; cbn [map firstn List.concat] in *; rewrite ?in_app_iff in *; cbn [In] in *; tauto.
    + apply incl_app; [|exact Hgs]. destruct (String.eqb name n_any_m); [apply incl_cons; [in_list | intros q []] | intros q []].
Qed.

Section Steps.
  Variable R : imports -> imports -> Prop.
  Hypothesis R_refl : forall i, R i i.
  Hypothesis R_trans : forall i j k, R i j -> R j k -> R i k.
  Hypothesis R_math : forall i, R i (add_import "math" i).
  Hypothesis R_from : forall f n i, In (f, n) gen_froms -> R i (add_from_import f n i).

  Definition mstep {X} (m : M X) : Prop := forall i x j, m i = Some (x, j) -> R i j.

  Lemma mstep_ret {X} (x : X) : mstep (ret x).
  Proof. intros i y j E. inversion E. apply R_refl. Qed.
  Lemma mstep_fail {X} : mstep (@fail X).
  Proof. intros i y j E. discriminate E. Qed.
  Lemma mstep_bind {X Y} (m : M X) (k : X -> M Y) : mstep m -> (forall x, mstep (k x)) -> mstep (bind m k).
  Proof.
    intros Hm Hk i y j E. unfold bind in E. destruct (m i) as [[x i1]|] eqn:Em; [|discriminate].
    eapply R_trans; [exact (Hm _ _ _ Em) | exact (Hk _ _ _ _ E)].
  Qed.
  Lemma mstep_math : mstep (touch (add_import "math")).
  Proof. intros i y j E. inversion E. apply R_math. Qed.
  Lemma mstep_from f n : In (f, n) gen_froms -> mstep (touch (add_from_import f n)).
  Proof. intros H i y j E. inversion E. apply R_from, H. Qed.

  Lemma mstep_mmap {X Y} (f : X -> M Y) l : (forall x, In x l -> mstep (f x)) -> mstep (mmap f l).
  Proof.
    induction l as [|x l IH]; intros H; cbn [mmap]; [apply mstep_ret|].
    apply mstep_bind; [apply H; left; reflexivity|]. intros c.
    apply mstep_bind; [apply IH; intros z Hz; apply H; right; exact Hz|]. intros cs. apply mstep_ret.
  Qed.
  Lemma mstep_mfiltermap {X Y} (g : X -> M (option Y)) l : (forall x, In x l -> mstep (g x)) -> mstep (mfiltermap g l).
  Proof.
    induction l as [|x l IH]; intros H; cbn [mfiltermap]; [apply mstep_ret|].
    apply mstep_bind; [apply H; left; reflexivity|]. intros c.
    apply mstep_bind; [apply IH; intros z Hz; apply H; right; exact Hz|]. intros cs. apply mstep_ret.
  Qed.
  Lemma mstep_mopt {X Y} (f : X -> M Y) o : (forall x, o = Some x -> mstep (f x)) -> mstep (mopt f o).
  Proof.
    intros H. destruct o as [x|]; cbn [mopt]; [|apply mstep_ret].
    apply mstep_bind; [apply H; reflexivity|]. intros c. apply mstep_ret.
  Qed.

  Lemma R_adds l : incl l typing_support -> forall i, R i (adds l i).
  Proof.
    induction l as [|s l IH]; intros H i; [apply R_refl|].
    change (adds (s :: l) i) with (adds l (add_from_import "typing" s i)).
    eapply R_trans; [|apply IH; intros q Hq; apply H; right; exact Hq].
    apply R_from, in_or_app. left. apply in_map. right. apply H. left. reflexivity.
  Qed.

  Lemma mstep_nm n : mstep (lift (nm_to_py n)).
  Proof. intros i y j E. unfold lift in E. rewrite nm_to_py_nf in E. inversion E. apply R_adds, nm_adds_support. Qed.
  Lemma mstep_tn t : mstep (lift (tn_to_py t)).
  Proof.
    intros i y j E. unfold lift in E. rewrite tn_to_py_nf in E. inversion E.
    apply R_adds, (nm_adds_support (NM [t])).
  Qed.
  Lemma mstep_opt_nm o : mstep (opt_nm_to_py o).
  Proof.
    intros i y j E. rewrite opt_nm_to_py_nf in E. inversion E. apply R_adds.
    destruct o as [n|]; [apply nm_adds_support | intros q []].
  Qed.

  Lemma mstep_post st c : mstep (post st c).
  Proof.
    unfold post. apply mstep_bind; [|intros c1; apply mstep_ret].
    destruct (assign_to st) as [[t n]|]; [|apply mstep_ret]. intros i y j E. unfold lift in E.
    rewrite append_assign_nf in E. inversion E. apply R_adds.
    eapply incl_tran; [apply asg_adds_incl|]. destruct n as [n|]; [apply nm_adds_support | intros q []].
  Qed.

  (** every step of a node's computation is a registration, a rendering or a recursive call *)
  Ltac msteps Hone Hlist Hopt :=
    repeat first
      [ apply mstep_ret | apply mstep_fail | apply mstep_math | (apply mstep_from; in_list)
      | apply mstep_opt_nm | apply mstep_nm | apply mstep_tn
      | (apply Hone; size_lia) | (apply Hlist; size_lia) | (apply Hopt; size_lia)
      | (apply mstep_bind; [|intros ?])
      | match goal with |- mstep (match ?x with _ => _ end) => destruct x end
      | match goal with |- mstep (if ?b then _ else _) => destruct b end ].

  Theorem conv_steps a : forall st, mstep (conv a st).
  Proof.
    induction a as [[aty nd] Hone] using size_ind. intros st. rewrite conv_unfold.
    assert (Hlist : forall l s, sizes l < size (A aty nd) -> mstep (mmap (fun x => conv x s) l)).
    { intros l s Hl. apply mstep_mmap. intros x Hx. apply Hone. pose proof (sizes_in x l Hx). lia. }
    assert (Hopt : forall o s, sizeo o < size (A aty nd) -> mstep (mopt (fun x => conv x s) o)).
    { intros o s Ho. apply mstep_mopt. intros x ->. apply Hone. exact Ho. }
    rewrite size_unfold in Hone, Hlist, Hopt.
    apply mstep_bind; [|intros c; apply mstep_post]. unfold conv_result. cbv beta iota zeta.
    (* the cases below start where [msteps] stopped *)
    destruct nd; msteps Hone Hlist Hopt.
    - (* NMatch *)
      apply mstep_mfiltermap. intros cse Hx. pose proof (sizes_in cse cases Hx) as Hsx.
      destruct cse as [xty xn]. destruct xn; try apply mstep_ret.
      destruct cond as [cty cn]. destruct cn; try apply mstep_ret.
      rewrite !size_unfold in Hsx. msteps Hone Hlist Hopt.
    - (* NHandle: the variable of the handled definition *)
      apply Hone. rewrite size_unfold. lia.
    - (* NHandle: the cases *)
      apply mstep_mmap. intros cse Hx. pose proof (sizes_in cse cases Hx) as Hsx.
      destruct cse as [xty xn]. destruct xn; try apply mstep_fail.
      destruct cond as [cty cn]. destruct cn; try apply mstep_fail.
      destruct ety as [cty'|]; [|apply mstep_fail].
      rewrite !size_unfold in Hsx. msteps Hone Hlist Hopt.
    - (* NDict *)
      apply mstep_mmap. intros kv Hkv. pose proof (sizesp_in kv elements Hkv) as Hs. msteps Hone Hlist Hopt.
  Qed.

End Steps.

Lemma conv_ile a st i c j : conv a st i = Some (c, j) -> ile i j.
Proof.
  exact (conv_steps ile ile_refl ile_trans (add_import_ile "math") (fun f n i0 _ => add_from_import_ile f n i0) a st i c j).
Qed.

Theorem conv_sep a st i c j : typing_sep i -> conv a st i = Some (c, j) -> typing_sep j.
Proof. intros Hs E. apply (conv_ile a st i c j E), Hs. Qed.

Theorem conv_wf a st i c j : wf i -> conv a st i = Some (c, j) -> wf j.
Proof.
  intros Hw E. revert Hw.
  apply (conv_steps (fun i j => wf i -> wf j) (fun _ H => H) (fun _ _ _ H1 H2 H => H2 (H1 H))
           (add_import_wf "math") (fun f n i _ => add_from_import_wf f n i) a st i c j E).
Qed.

Definition mcov {X} (L : list need) (m : M X) (nd : X -> list need) (V : X -> Prop) : Prop :=
  forall i x j, typing_sep i -> covers i L -> m i = Some (x, j) ->
    ile i j /\ covers j (nd x) /\ V x.

Lemma mcov_ret {X} L (x : X) nd (V : X -> Prop) : incl (nd x) L -> V x -> mcov L (ret x) nd V.
Proof.
  intros Hi Hv i y j Hs Hc E. inversion E; subst. split; [apply ile_refl|]. split; [|exact Hv].
  eapply covers_incl; eassumption.
Qed.
Lemma mcov_fail {X} L nd (V : X -> Prop) : mcov L fail nd V.
Proof. intros i y j _ _ E. discriminate E. Qed.
Lemma mcov_bind {X Y} L (m : M X) (k : X -> M Y) nd1 (V1 : X -> Prop) nd2 (V2 : Y -> Prop) :
  mcov L m nd1 V1 -> (forall x, V1 x -> mcov (nd1 x ++ L) (k x) nd2 V2) -> mcov L (bind m k) nd2 V2.
Proof.
  intros Hm Hk i y j Hs Hc E. unfold bind in E. destruct (m i) as [[x i1]|] eqn:Em; [|discriminate].
  destruct (Hm _ _ _ Hs Hc Em) as (K1 & K2 & K3).
  assert (Hs1 : typing_sep i1) by (apply K1; exact Hs).
  assert (Hc1 : covers i1 (nd1 x ++ L)).
  { apply covers_app. split; [exact K2 | eapply covers_mono; eassumption]. }
  destruct (Hk x K3 _ _ _ Hs1 Hc1 E) as (M1 & M2 & M3).
  split; [eapply ile_trans; eassumption|]. split; assumption.
Qed.
Lemma mcov_weaken {X} L L' (m : M X) nd (V : X -> Prop) : incl L L' -> mcov L m nd V -> mcov L' m nd V.
Proof. intros Hi Hm i x j Hs Hc E. apply (Hm i x j Hs); [eapply covers_incl; eassumption | exact E]. Qed.

Lemma mcov_touch_add L s : mcov L (touch (add_import s)) (fun _ => [PlainImport s]) (fun _ => True).
Proof.
  intros i x j Hs Hc E. inversion E; subst. split; [apply add_import_ile|]. split; [|exact I].
  intros n [<-|[]]. apply add_import_provides.
Qed.
Lemma mcov_touch_from L f x : mcov L (touch (add_from_import f x)) (fun _ => [FromImport f x]) (fun _ => True).
Proof.
  intros i y j Hs Hc E. inversion E; subst. split; [apply add_from_import_ile|]. split; [|exact I].
  intros n [<-|[]]. apply add_from_import_provides.
Qed.
Lemma mcov_lift {X} L (f : imports -> X * imports) nd (V : X -> Prop) : render_covers f nd V -> mcov L (lift f) nd V.
Proof.
  intros H i x j Hs Hc E. unfold lift in E. specialize (H i Hs). destruct (f i) as [x' j']. inversion E; subst. exact H.
Qed.
Lemma mcov_opt_nm L o : onm_ok o = true -> mcov L (opt_nm_to_py o) (oneeds needs) (fun _ => True).
Proof.
  intros Ho. destruct o as [n|]; cbn [opt_nm_to_py]; [|apply mcov_ret; [intros x [] | exact I]].
  intros i x j Hs Hc E. unfold lift in E. destruct (nm_cov n Ho i Hs) as (K1 & K2 & _).
  destruct (nm_to_py n i) as [c i']. inversion E; subst. cbn [fst snd oneeds] in *. auto.
Qed.

Definition on_some {X} (V : X -> Prop) (o : option X) : Prop := match o with Some x => V x | None => True end.

Lemma mcov_mmap {X Y} L (f : X -> M Y) l nd (V : Y -> Prop) :
  (forall x, In x l -> mcov L (f x) nd V) -> mcov L (mmap f l) (flat_map nd) (Forall V).
Proof.
  induction l as [|x l IH]; intros H; cbn [mmap]; [apply mcov_ret; [intros n [] | constructor]|].
  eapply mcov_bind; [apply H; left; reflexivity|]. intros c Hc.
  eapply mcov_bind.
  { eapply mcov_weaken; [|apply IH; intros z Hz; apply H; right; exact Hz]. apply incl_appr, incl_refl. }
  intros cs Hcs. apply mcov_ret; [|constructor; assumption].
  cbn [flat_map]. apply incl_app; [apply incl_appr, incl_appl, incl_refl | apply incl_appl, incl_refl].
Qed.
Lemma mcov_mfiltermap {X Y} L (g : X -> M (option Y)) l nd (V : Y -> Prop) :
  (forall x, In x l -> mcov L (g x) (oneeds nd) (on_some V)) -> mcov L (mfiltermap g l) (flat_map nd) (Forall V).
Proof.
  induction l as [|x l IH]; intros H; cbn [mfiltermap]; [apply mcov_ret; [intros n [] | constructor]|].
  eapply mcov_bind; [apply H; left; reflexivity|]. intros c Hc.
  eapply mcov_bind.
  { eapply mcov_weaken; [|apply IH; intros z Hz; apply H; right; exact Hz]. apply incl_appr, incl_refl. }
  intros cs Hcs. destruct c as [y|]; cbn [oneeds on_some] in *.
  - apply mcov_ret; [|constructor; assumption].
    cbn [flat_map]. apply incl_app; [apply incl_appr, incl_appl, incl_refl | apply incl_appl, incl_refl].
  - apply mcov_ret; [apply incl_appl, incl_refl | exact Hcs].
Qed.
Lemma mcov_mopt {X Y} L (f : X -> M Y) o nd (V : Y -> Prop) :
  (forall x, o = Some x -> mcov L (f x) nd V) -> mcov L (mopt f o) (oneeds nd) (on_some V).
Proof.
  intros H. destruct o as [x|]; cbn [mopt]; [|apply mcov_ret; [intros n [] | exact I]].
  eapply mcov_bind; [apply H; reflexivity|]. intros c Hc. apply mcov_ret; [apply incl_appl, incl_refl | exact Hc].
Qed.

Definition tgt_ok (a : option (core * option nm)) (L : list need) : Prop :=
  match a with Some (t, name) => incl (needs t) L /\ onm_ok name = true | None => True end.
Lemma tgt_ok_incl a L L' : incl L L' -> tgt_ok a L -> tgt_ok a L'.
Proof.
  intros Hi. destruct a as [[t n]|]; cbn [tgt_ok]; [|auto]. intros [H1 H2]. split; [|exact H2].
  eapply incl_tran; eassumption.
Qed.

Lemma mcov_post st L (r : M core) :
  tgt_ok (assign_to st) L -> mcov L r needs head_ok -> mcov L (bind r (post st)) needs head_ok.
Proof.
  intros Ht Hr. eapply mcov_bind; [exact Hr|]. intros c Hc. unfold post.
  eapply mcov_bind with (nd1 := needs) (V1 := head_ok).
  - destruct (assign_to st) as [[t n]|]; [|apply mcov_ret; [apply incl_appl, incl_refl | exact Hc]].
    cbn [tgt_ok] in Ht. destruct Ht as [Ht Hn].
    intros i x j Hs Hcv E. unfold lift in E.
    assert (H1 : incl (needs t) (needs c ++ L)) by (apply incl_appr; exact Ht).
    assert (H2 : incl (needs c) (needs c ++ L)) by (apply incl_appl, incl_refl).
    destruct (append_assign_cov (needs c ++ L) t n c Hn H1 H2 i Hs Hcv) as [K1 K2].
    pose proof (append_assign_head t n c i Hc) as K3.
    destruct (append_assign t n c i) as [c' i']. inversion E; subst. cbn [fst snd] in *. auto.
  - intros c1 Hc1. destruct (last_ret st).
    + apply mcov_ret; [|apply head_append_ret; exact Hc1].
      eapply incl_tran; [apply needs_append_ret | apply incl_appl, incl_refl].
    + apply mcov_ret; [apply incl_appl, incl_refl | exact Hc1].
Qed.

Lemma rf_ty e : reserved_free e = true -> onm_ok (ast_ty e) = true.
Proof. destruct e as [ty n]. rewrite rf_unfold. intros H. apply andb_prop in H. exact (proj1 H). Qed.

Lemma flat_map_none (l : list core) : flat_map needs (map (fun _ : core => None_) l) = [].
Proof. induction l as [|x l IH]; [reflexivity|]. cbn [map flat_map needs app]. exact IH. Qed.
Lemma tl_default_needs v : oneeds needs (tl_default v) = [].
Proof. destruct v; try reflexivity. apply flat_map_none. Qed.

Lemma dec_need_abs : dec_need "abstractmethod" = [FromImport "abc" "abstractmethod"].
Proof. reflexivity. Qed.
Lemma parent_need_abc : parent_need (Id "ABC") = [FromImport "abc" "ABC"].
Proof. reflexivity. Qed.
Lemma call_need_range : call_need (Id n_range) = []. Proof. reflexivity. Qed.
Lemma call_need_slice : call_need (Id n_slice) = []. Proof. reflexivity. Qed.
Lemma call_need_newtype : call_need (Id "NewType") = [FromImport "typing" "NewType"].
Proof. reflexivity. Qed.
Lemma call_need_type lit g : call_need (Type_ lit g) = [].
Proof. reflexivity. Qed.
Lemma needs_bin_core o l r : needs (bin_core o l r) = needs l ++ needs r.
Proof. destruct o; reflexivity. Qed.
Lemma head_bin_core o l r : head_ok (bin_core o l r).
Proof. destruct o; exact I. Qed.

Lemma abc_ok_lit name lit : abc_ok name = true -> (lit = "ABC" -> concrete_to_python name = "ABC") -> lit <> "ABC".
Proof. intros H Hlit E. unfold abc_ok in H. rewrite (Hlit E) in H. discriminate H. Qed.

(** splits every hypothesis [_ && _ = true] into its two halves *)
Ltac split_andb := repeat match goal with H : _ && _ = true |- _ => apply andb_prop in H; destruct H end.

(** an inclusion between lists of needs put together with [++] from the same parts *)
Ltac needs_incl :=
  cbv beta;
  rewrite ?needs_bin_core; cbn [needs oneeds flat_map app un_need fst snd un_core];
  rewrite ?call_need_range, ?call_need_slice, ?call_need_newtype, ?call_need_type, ?dec_need_abs, ?flat_map_none, ?app_nil_r;
  let n := fresh "n" in let H := fresh "H" in
  intros n H; rewrite ?in_app_iff in H; rewrite ?in_app_iff; cbn [In] in H; cbn [In]; tauto.

(** [tgt_ok] of an updated state: no target, or the one at hand with more covered *)
Ltac tgt_tac :=
  cbn [assign_to with_last_ret with_assign with_tup_lit with_expand with_remove_ret with_interface with_def_as_fun_arg];
  first [ exact I
        | (eapply tgt_ok_incl; [|eassumption]; needs_incl) ].

(** [mcov] of a node whose steps are recursive calls, registrations, renderings, and a sub-tree or
    an annotation that may be absent, ending in [ret]; stops at a step of another kind and where a converted
    sub-term is inspected; when a list of sub-trees is taken apart, so is its [forallb reserved_free] *)
Ltac mcovs Hone Hlist Hopt :=
  repeat first
    [ apply mcov_fail
    | match goal with |- mcov _ (match ?x with _ => _ end) _ _ =>
        lazymatch type of x with
        | core => fail
        | option (_ * _)%type => fail
        | list _ => destruct x; cbn [forallb] in *; split_andb
        | _ => destruct x
        end end
    | match goal with |- mcov _ (ret ?c) _ _ => match c with context [if ?b then _ else _] => destruct b end end
    | (apply mcov_ret; [needs_incl | first [exact I | apply head_bin_core]])
    | (eapply mcov_bind; [apply Hone; [size_lia | assumption | tgt_tac] | intros ? ?])
    | (eapply mcov_bind; [apply Hlist; [size_lia | assumption | tgt_tac] | intros ? ?])
    | (eapply mcov_bind; [apply Hopt; [size_lia | assumption | tgt_tac] | intros ? ?])
    | (eapply mcov_bind; [apply mcov_touch_add | intros ? _])
    | (eapply mcov_bind; [apply mcov_touch_from | intros ? _])
    | (eapply mcov_bind; [apply mcov_opt_nm; assumption | intros ? _])
    | (eapply mcov_bind; [apply mcov_lift; apply nm_cov; assumption | intros ? ?])
    | (eapply mcov_bind with (nd1 := needs) (V1 := head_ok);
         [match goal with |- mcov _ (match ?x with _ => _ end) _ _ => destruct x end | intros ? ?])
    | (eapply mcov_bind with (nd1 := oneeds needs) (V1 := fun _ => True);
         [match goal with |- mcov _ (match ?x with _ => _ end) _ _ => destruct x end | intros ? _])
    | (apply mcov_opt_nm; assumption)
    | (apply Hone; [size_lia | assumption | tgt_tac]) ].

Definition Pcov (a : ast) : Prop :=
  forall st L, reserved_free a = true -> tgt_ok (assign_to st) L -> mcov L (conv a st) needs head_ok.

Theorem conv_covers_all a : Pcov a.
Proof.
  induction a as [[aty nd] Hone] using size_ind. unfold Pcov in Hone.
  intros st L Hrf Htok. rewrite conv_unfold.
  rewrite rf_unfold in Hrf. apply andb_prop in Hrf. destruct Hrf as [Haty Hrf].
  assert (Hlist : forall l, sizes l < size (A aty nd) -> forall s L, forallb reserved_free l = true ->
                    tgt_ok (assign_to s) L -> mcov L (mmap (fun x => conv x s) l) (flat_map needs) (Forall head_ok)).
  { intros l Hl s L0 Hr Ht. apply mcov_mmap. intros x Hx. apply Hone; [|exact (proj1 (forallb_forall _ _) Hr x Hx) | exact Ht].
    pose proof (sizes_in x l Hx). lia. }
  assert (Hopt : forall o, sizeo o < size (A aty nd) -> forall s L, rfo o = true -> tgt_ok (assign_to s) L ->
                   mcov L (mopt (fun x => conv x s) o) (oneeds needs) (on_some head_ok)).
  { intros o Ho s L0 Hr Ht. apply mcov_mopt. intros x ->. apply Hone; assumption. }
  rewrite size_unfold in Hone, Hlist, Hopt.
  apply mcov_post; [exact Htok|]. unfold conv_result. cbv beta iota zeta.
  (* the cases below start where [mcovs] stopped *)
  destruct nd; split_andb; mcovs Hone Hlist Hopt.
  - (* NCall *)
    eapply mcov_bind; [apply mcov_lift; apply tn_cov; assumption | intros f (lit & g & -> & Hlit)].
    eapply mcov_bind; [apply Hlist; [size_lia | assumption | tgt_tac] | intros cs Hcs].
    apply mcov_ret; [needs_incl|]. cbn [head_ok]. apply (abc_ok_lit name); assumption.
  - (* NVarDef: the annotation is that of the value *)
    apply mcov_opt_nm, rf_ty. assumption.
  - (* NVarDef: a branching value is converted again, as an assignment in every branch *)
    rewrite branch_match. destruct (is_branching _).
    + apply Hone; [size_lia | assumption |]. cbn [assign_to with_assign tgt_ok].
      split; [needs_incl | apply rf_ty; assumption].
    + apply mcov_ret; [needs_incl | exact I].
  - (* NVarDef without value *)
    rewrite tl_match. apply mcov_ret; [cbn [needs]; rewrite tl_default_needs; needs_incl | exact I].
  - (* NFunDef *)
    eapply mcov_bind with (nd1 := fun d : list string * core => flat_map dec_need (fst d) ++ needs (snd d))
                          (V1 := fun _ => True); [mcovs Hone Hlist Hopt|].
    intros d _.
    eapply mcov_bind; [apply Hone; [size_lia | assumption | tgt_tac] | intros cid Hcid].
    rewrite id_match. destruct (id_lit cid) as [lit|]; [|apply mcov_fail].
    destruct (funop_of lit); (apply mcov_ret; [needs_incl | exact I]).
  - (* NMatch *)
    eapply mcov_bind with (nd1 := flat_map needs) (V1 := Forall head_ok).
    { apply mcov_mfiltermap. intros cse Hx. pose proof (sizes_in cse cases Hx) as Hsx.
      match goal with Hf : forallb reserved_free cases = true |- _ =>
        pose proof (proj1 (forallb_forall _ _) Hf cse Hx) as Hrx end.
      destruct cse as [xty xn]. destruct xn; try (apply mcov_ret; [needs_incl | exact I]).
      destruct cond as [cty cn]. destruct cn; try (apply mcov_ret; [needs_incl | exact I]).
      rewrite !size_unfold in Hsx. rewrite !rf_unfold in Hrx. split_andb. mcovs Hone Hlist Hopt. }
    intros cs Hcs. apply mcov_ret; [needs_incl | exact I].
  - (* NHandle *)
    eapply mcov_bind with
      (nd1 := fun vt : option core * option core => oneeds needs (fst vt) ++ oneeds needs (snd vt))
      (V1 := fun _ => True).
    { destruct e as [ety en]. destruct en; try (apply mcov_ret; [needs_incl | exact I]).
      match goal with Hr : reserved_free (A _ _) = true |- _ => rewrite rf_unfold in Hr end. split_andb.
      eapply mcov_bind; [apply mcov_opt_nm; assumption | intros t _].
      eapply mcov_bind; [apply Hone; [rewrite size_unfold; lia | assumption | tgt_tac] | intros v Hv].
      apply mcov_ret; [needs_incl | exact I]. }
    intros vt _.
    eapply mcov_bind; [apply Hone; [lia | assumption | tgt_tac] | intros at_ Hat].
    eapply mcov_bind with (nd1 := flat_map needs) (V1 := Forall head_ok).
    { apply mcov_mmap. intros x Hx. pose proof (sizes_in x cases Hx) as Hsx.
      match goal with Hf : forallb reserved_free cases = true |- _ =>
        pose proof (proj1 (forallb_forall _ _) Hf x Hx) as Hrx end.
      destruct x as [xty xn]. destruct xn; try apply mcov_fail.
      destruct cond as [cty cn]. destruct cn; try apply mcov_fail.
      destruct ety as [cty'|]; [|apply mcov_fail].
      rewrite !size_unfold in Hsx. rewrite !rf_unfold in Hrx. split_andb.
      eapply mcov_bind; [apply Hone; [lia | assumption | tgt_tac] | intros id Hid].
      eapply mcov_bind; [apply mcov_lift; apply nm_cov; assumption | intros cl Hcl].
      eapply mcov_bind.
      { apply Hone; [lia | assumption |]. cbn [assign_to with_assign].
        destruct (fst vt) as [v|]; cbn [tgt_ok]; [|exact I]. split; [needs_incl | apply rf_ty; assumption]. }
      intros b Hb. rewrite underscore_match. destruct (is_underscore id); (apply mcov_ret; [needs_incl | exact I]). }
    intros ex Hex. destruct (fst vt); (apply mcov_ret; [needs_incl | exact I]).
  - (* NClass *)
    match goal with |- context [assemble_class (match ?b with _ => _ end) _ _] =>
      assert (Hst : List.incl (flat_map needs (match b with Some x => block_stmts x | None => [] end)) (oneeds needs b))
        by (destruct b; [apply block_stmts_needs | intros ? []]) end.
    destruct (assemble_class _ _ _) as [[pn bs]|] eqn:Ea; [|apply mcov_fail].
    destruct (assemble_class_needs _ _ _ _ _ Ea) as (A1 & A2 & A3); [assumption|].
    eapply mcov_bind; [apply mcov_lift; apply tn_cov; assumption | intros t (lit & g & -> & _)].
    apply mcov_ret; [|exact I]. cbn [needs]. rewrite A1. cbn [app].
    intros q Hx. pose proof (A2 q) as A2x. pose proof (A3 q) as A3x. pose proof (Hst q) as Hstx.
    rewrite ?in_app_iff in Hx. rewrite ?in_app_iff in A3x. rewrite ?in_app_iff. tauto.
  - (* NParent *)
    eapply mcov_bind; [apply mcov_lift; apply tn_cov; assumption | intros t (lit & g & -> & Hlit)].
    destruct args as [|a0 args'].
    + apply mcov_ret; [needs_incl | exact I].
    + eapply mcov_bind; [apply Hlist; [size_lia | assumption | tgt_tac] | intros cs Hcs].
      apply mcov_ret; [needs_incl|]. cbn [head_ok]. apply (abc_ok_lit name); assumption.
  - (* NTypeDef *)
    eapply mcov_bind with (nd1 := flat_map needs) (V1 := Forall head_ok).
    { destruct isa as [n0|]; [|apply mcov_ret; [needs_incl | constructor]].
      eapply mcov_bind; [apply mcov_lift; apply nm_cov; assumption | intros t Ht].
      apply mcov_ret; [needs_incl | constructor; [destruct t; try contradiction; exact I | constructor]]. }
    intros ps Hps.
    eapply mcov_bind; [apply Hopt; [size_lia | assumption | tgt_tac] | intros b Hb].
    cbv zeta. destruct (assemble_class _ [] ps) as [[pn bs]|] eqn:Ea; [|apply mcov_fail].
    destruct (assemble_class_needs _ _ _ _ _ Ea Hps) as (A1 & A2 & A3).
    assert (Hst : List.incl (flat_map needs (match b with Some x => block_stmts x | None => [] end)) (oneeds needs b))
      by (destruct b; [apply block_stmts_needs | intros ? []]).
    eapply mcov_bind with (nd1 := fun l : list core => flat_map parent_need l ++ flat_map needs l)
                          (V1 := fun _ => True).
    { destruct abstract_parent.
      - apply mcov_ret; [|exact I]. rewrite A1. cbn [app].
        intros q Hx. pose proof (A2 q) as A2x. rewrite ?in_app_iff. tauto.
      - eapply mcov_bind; [apply mcov_touch_from | intros ? _]. apply mcov_ret; [|exact I].
        rewrite !flat_map_app, A1. cbn [flat_map needs app]. rewrite parent_need_abc. cbv beta.
        intros q Hx. pose proof (A2 q) as A2x. rewrite ?in_app_iff in Hx. cbn [In] in Hx.
        repeat first [rewrite in_app_iff | progress cbn [In]]. tauto. }
    intros pn' _.
    eapply mcov_bind; [apply mcov_lift; apply tn_cov; assumption | intros t (lit & g & -> & _)].
    apply mcov_ret; [|exact I]. cbn [needs].
    intros q Hx. pose proof (A3 q) as A3x. pose proof (Hst q) as Hstx.
    rewrite ?in_app_iff in Hx. cbn [In] in Hx. rewrite ?in_app_iff in A3x. cbn [flat_map In] in A3x.
    rewrite ?in_app_iff. tauto.
  - (* NDict *)
    eapply mcov_bind.
    { eapply (mcov_mmap L _ elements (fun kv : core * core => needs (fst kv) ++ needs (snd kv)) (fun _ => True)).
      intros kv Hkv. pose proof (sizesp_in kv elements Hkv) as Hs.
      match goal with Hf : forallb _ elements = true |- _ =>
        pose proof (proj1 (forallb_forall _ _) Hf kv Hkv) as Hrx end.
      cbv beta in Hrx. split_andb. mcovs Hone Hlist Hopt. }
    intros kvs _. apply mcov_ret; [needs_incl | exact I].
Qed.
