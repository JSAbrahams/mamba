(** Above the pure expressions of [ExprSim]: definitions [def x := e], assignments [x := e], compound
    assignments [x += e] (every operator of the table), [pass], blocks, and [if]/[if-else] in statement
    position, nested to any depth, all right-hand sides and conditions pure and every target an
    identifier the name table leaves alone.
    - [conv_simple_sim]: whatever [conv] emits for such a statement (in a state without pending
      return/assignment flags, outside a parameter list: [plain_stmt]), the statement semantics of Python
      [pexec] ends normally / raises exactly when the reference semantics [mev] does, and the two final
      environments again agree on every variable,
      on the printed output and on the [bad] flag - for every statement fuel at least as large and every
      expression fuel at least twice as large.  (Nothing is claimed where the reference semantics itself is
      undefined: unsupported value shapes, out of fuel.) *)
From Coq Require Import List String Bool ZArith Lia.
Local Open Scope string_scope.
From MambaModel Require Import model.Core gen.Names model.SemDom model.Convert model.PySem model.PyEval model.MEval.
From MambaModel Require Import proofs.ConvUnfold proofs.ConvertProps proofs.ExprSim.
Import ListNotations.

Definition stable_id (a : ast) : bool :=
  match a with A _ (NId x) => String.eqb (concrete_to_python x) x | _ => false end.

Definition simple_op (o : nodeop) : bool :=
  match o with NAssign => true | _ => match nodeop_sop o with Some _ => true | None => false end end.

Fixpoint simple (a : ast) : bool :=
  match a with A aty nd =>
  match nd with
  | NPass => true
  | NVarDef var _ (Some e) => stable_id var && pure e
  | NReassign l r op => stable_id l && pure r && simple_op op
  | NBlock l => forallb simple l
  | NIfElse c t (Some el) => match aty with None => pure c && simple t && simple el | Some _ => false end
  | NIfElse c t None => pure c && simple t
  | _ => false
  end end.

(** a conversion state without pending flags, outside a parameter list *)
Definition plain_stmt (st : state) : Prop := plain st /\ def_as_fun_arg st = false.

Definition srel (em : menv) (ep : penv) : Prop :=
  env_rel em ep /\ out em = out ep /\ bad em = bad ep.

Lemma sget_sset y x v s : sget y (sset x v s) = if String.eqb y x then Some v else sget y s.
Proof.
  induction s as [|[k w] r IH]; cbn [sset sget].
  - reflexivity.
  - destruct (String.eqb_spec x k) as [->|Hxk]; cbn [sget].
    + destruct (String.eqb_spec y k); reflexivity.
    + rewrite IH. destruct (String.eqb_spec y k) as [->|Hyk]; [|reflexivity].
      destruct (String.eqb_spec k x) as [->|_]; [contradiction Hxk; reflexivity | reflexivity].
Qed.

Lemma lookup_set {B} y x v (e : env B) :
  lookup_var y (set_var x v e) = if String.eqb y x then Some v else lookup_var y e.
Proof.
  unfold lookup_var, set_var. destruct (frame e) as [fr|]; cbn [frame globals].
  - rewrite sget_sset. destruct (String.eqb y x); reflexivity.
  - apply sget_sset.
Qed.

Lemma out_set {B} x v (e : env B) : out (set_var x v e) = out e.
Proof. unfold set_var. destruct (frame e); reflexivity. Qed.
Lemma bad_set {B} x v (e : env B) : bad (set_var x v e) = bad e.
Proof. unfold set_var. destruct (frame e); reflexivity. Qed.

Lemma srel_set x v em ep : srel em ep -> srel (set_var x v em) (set_var x v ep).
Proof.
  intros [R [Ho Hb]]. split; [|split].
  - intro y. rewrite !lookup_set. destruct (String.eqb y x); [reflexivity | apply R].
  - rewrite !out_set. exact Ho.
  - rewrite !bad_set. exact Hb.
Qed.

Notation pex fe := (pexec (cexpr fe)).
Notation poutcome := (PySem.outcome value penv value).

Definition SRel (r : mres) (o : poutcome) : Prop :=
  match r with
  | MVal _ em' => exists ep', o = ONormal _ _ _ ep' /\ srel em' ep'
  | MExc x em' => is_internal x = true \/ exists ep', o = ORaise _ _ _ x ep' /\ srel em' ep'
  | _ => False
  end.

(** an expression evaluated inside a statement: [K] is what Python does with its result *)
Lemma srel_mval r em ep c k k' (K : (value + value) * penv -> poutcome) :
  Rel em ep r c -> srel em ep ->
  (forall v, SRel (k v em) (K (inl v, ep))) ->
  (forall x, K (inr x, ep) = ORaise _ _ _ x ep) ->
  SRel (match r with
        | MVal (Some v) e1 => k v e1 | MVal None e1 => k' e1
        | MRet v e1 => MRet v e1 | MExc x e1 => MExc x e1 | MBrk e1 => MBrk e1 | MCont e1 => MCont e1
        end) (K c).
Proof.
  destruct r as [[v|] e1 | v e1 | x e1 | e1 | e1]; cbn; intros H R Hk Hx; try contradiction.
  - destruct H as [-> ->]. apply Hk.
  - destruct H as [I | [-> ->]]; [left; exact I | right; exists ep; split; [apply Hx | exact R]].
Qed.

(* [expr_step S R]: [S] relates the sub-expression evaluated next on both sides, [R] the environments;
   the rest of the Python side is read as a function of that result and [srel_mval] applied *)
Ltac expr_step S R :=
  match type of S with Rel _ _ _ ?c =>
    match goal with |- SRel _ ?rhs =>
      let K := eval pattern c in rhs in
      match K with ?F _ => apply (srel_mval _ _ _ _ _ _ F S R); [cbv beta | reflexivity] end
    end
  end.

Lemma mseq_cons ev s r e :
  mseq ev (s :: r) e
  = match ev s e with
    | MVal v e1 => match r with [] => MVal v e1 | _ :: _ => mseq ev r e1 end
    | other => other
    end.
Proof. destruct r; cbn [mseq]; [destruct (ev s e)|]; reflexivity. Qed.

Definition is_branching (c : core) : bool :=
  match c with IfElse _ _ _ | Match _ _ => true | _ => false end.

Lemma tr_not_branching : forall n a b, size a <= n -> pure a = true -> is_branching (tr b a) = false.
Proof.
  induction n as [|n IH]; intros a b Hn Hp.
  { destruct a; rewrite size_unfold in Hn; lia. }
  destruct a as [ty nd]. rewrite size_unfold in Hn.
  destruct nd; cbn [pure] in Hp; try discriminate Hp; cbn [tr]; try reflexivity.
  - destruct o; reflexivity.
  - destruct o; reflexivity.
  - destruct b; reflexivity.
  - apply IH; [lia | exact Hp].
Qed.

Lemma plain_cond st : plain st -> with_assign (with_last_ret st false) None = st.
Proof. exact (plain_norm st). Qed.

Lemma mmap_inv (st : state) : forall (l : list ast) i cs i',
  mmap (fun x => conv x st) l i = Some (cs, i') ->
  match l with
  | [] => cs = [] /\ i' = i
  | a :: r => exists c i1 cr, conv a st i = Some (c, i1)
                              /\ mmap (fun x => conv x st) r i1 = Some (cr, i') /\ cs = c :: cr
  end.
Proof.
  intros [|a r] i cs i' H; cbn [mmap] in H.
  - unfold ret in H. injection H as <- <-. split; reflexivity.
  - apply bind_inv in H. destruct H as [c [i1 [Hc H]]].
    apply bind_inv in H. destruct H as [cr [i2 [Hr H]]].
    unfold ret in H. injection H as <- <-. exists c, i1, cr. repeat split; assumption.
Qed.

Lemma op_tables o : simple_op o = true -> o <> NAssign ->
  exists co so, core_op o = Some co /\ nodeop_sop o = Some so /\ coreop_sop co = Some so /\ co <> OpAssign.
Proof.
  intros H Hn. destruct o; try (contradiction Hn; reflexivity); cbn in H; try discriminate H;
    eexists; eexists; (split; [reflexivity|]); (split; [reflexivity|]); (split; [reflexivity | discriminate]).
Qed.

Theorem conv_simple_sim : forall f a, simple a = true ->
  forall st i c i', plain_stmt st -> conv a st i = Some (c, i') ->
  forall fs fe em ep, f <= fs -> 2 * f <= fe -> srel em ep ->
    SRel (mev0 f a em) (pex fe fs c ep).
Proof.
  induction f as [|f IH]; intros a Hs st i c i' Pst Hc fs fe em ep Hfs Hfe R.
  { cbn. left. reflexivity. }
  destruct fs as [|fs]; [lia|]. assert (Hfs' : f <= fs) by lia. assert (Hfe' : 2 * f <= fe) by lia.
  destruct Pst as [Pl Hdf]. pose proof Pl as [Ha Hl].
  destruct a as [aty nd]. rewrite (conv_result_clean _ _ _ Ha Hl) in Hc. unfold conv_result in Hc. cbv zeta in Hc.
  rewrite (plain_norm st Pl) in Hc.
  destruct nd; cbn [simple] in Hs; try discriminate Hs.
  - unfold ret in Hc. injection Hc as <- <-. cbn. exists ep. split; [reflexivity | exact R].
  - destruct expr as [e|]; [|discriminate Hs].
    apply andb_true_iff in Hs. destruct Hs as [Hv He].
    destruct var as [vt vn]. destruct vn; cbn [stable_id] in Hv; try discriminate Hv.
    apply bind_inv in Hc. destruct Hc as [v [i1 [Hcv Hc]]].
    assert (Ptl : plain (with_tup_lit st)) by (destruct st; cbn in *; split; assumption).
    rewrite (conv_pure _ (A vt (NId s)) (le_n _) Hv (with_tup_lit st) i Ptl) in Hcv.
    cbn [tr] in Hcv. injection Hcv as <- <-.
    apply bind_inv in Hc. destruct Hc as [ty [i2 [_ Hc]]].
    rewrite Hdf in Hc.
    apply bind_inv in Hc. destruct Hc as [ce [i3 [Hce Hc]]].
    rewrite (conv_pure (size e) e (le_n _) He st i2 Pl) in Hce. injection Hce as <- <-.
    pose proof (tr_not_branching (size e) e (tup_lit st) (le_n _) He) as Hnb.
    assert (Hc' : c = VarDef (Id s) ty (Some (tr (tup_lit st) e)) /\ i' = i2).
    { destruct (tr (tup_lit st) e); cbn in Hnb; try discriminate Hnb;
        unfold bind, ret in Hc; injection Hc as <- <-; split; reflexivity. }
    destruct Hc' as [-> ->].
    pose proof (pure_sim f e He (tup_lit st) fe Hfe' em ep (proj1 R)) as Se.
    cbn [mev_dev mev1 PySem.exec]. expr_step Se R. intro w.
    eexists. split; [reflexivity|]. apply srel_set. exact R.
  - apply andb_true_iff in Hs. destruct Hs as [Hs Hop]. apply andb_true_iff in Hs. destruct Hs as [Hv Hr].
    destruct l as [vt vn]. destruct vn; cbn [stable_id] in Hv; try discriminate Hv.
    apply bind_inv in Hc. destruct Hc as [cl [i1 [Hcl Hc]]].
    rewrite (conv_pure _ (A vt (NId s)) (le_n _) Hv st i Pl) in Hcl. injection Hcl as <- <-.
    apply bind_inv in Hc. destruct Hc as [cr [i2 [Hcr Hc]]].
    rewrite (conv_pure (size r) r (le_n _) Hr st i Pl) in Hcr. injection Hcr as <- <-.
    cbn [tr] in Hc.
    pose proof (pure_sim f r Hr (tup_lit st) fe Hfe' em ep (proj1 R)) as Sr.
    destruct op; try (cbn in Hop; discriminate Hop);
      [ (* [x := e] *)
        cbn in Hc; unfold ret in Hc; injection Hc as <- <-;
        cbn [mev_dev mev1 PySem.exec]; expr_step Sr R; intro w;
        eexists; split; [reflexivity|]; apply srel_set; exact R
      | (* [x op= e], one script for the seven operators: [op_tables] names the operator on both sides,
           then the target and the right-hand side are evaluated in turn *)
        destruct (op_tables _ Hop ltac:(discriminate)) as [co [so [Hco [Hso [Hcso Hne]]]]];
        rewrite Hco in Hc; unfold ret in Hc; injection Hc as <- <-;
        cbn in Hco; injection Hco as <-; cbn in Hso; injection Hso as <-;
        pose proof (pure_sim f (A vt (NId s)) Hv (tup_lit st) fe Hfe' em ep (proj1 R)) as Sl; cbn [tr] in Sl;
        cbn [mev_dev mev1 nodeop_sop PySem.exec]; unfold PySem.ebind, caugment; cbn [coreop_sop];
        expr_step Sl R; intro x; expr_step Sr R; intro y;
        destruct (sbin _ x y) as [res|ex];
        [ eexists; split; [reflexivity | apply srel_set; exact R]
        | right; eexists; split; [reflexivity | exact R] ] .. ].
  - apply bind_inv in Hc. destruct Hc as [cs [i1 [Hcs Hc]]]. unfold ret in Hc. injection Hc as <- <-.
    cbn [mev_dev mev1 PySem.exec].
    revert i cs i1 em ep R Hcs. induction stmts as [|s r IHr]; intros i cs i1 em ep R Hcs.
    + apply mmap_inv in Hcs. destruct Hcs as [-> ->]. cbn. exists ep. split; [reflexivity | exact R].
    + cbn [forallb] in Hs. apply andb_true_iff in Hs. destruct Hs as [Hs1 Hsr].
      apply mmap_inv in Hcs. destruct Hcs as [c1 [i2 [cr [Hc1 [Hcr ->]]]]].
      pose proof (IH s Hs1 st i c1 i2 (conj Pl Hdf) Hc1 fs fe em ep Hfs' Hfe' R) as S1.
      specialize (IHr Hsr).
      rewrite mseq_cons. cbn [PySem.seq_exec].
      destruct (mev0 f s em) as [ov e1 | w e1 | x e1 | e1 | e1]; cbn in S1; try contradiction.
      * destruct S1 as [ep' [-> R']]. specialize (IHr i2 cr i1 e1 ep' R' Hcr).
        (* [SRel] does not look at the value of a statement *)
        destruct r; exact IHr.
      * destruct S1 as [I | [ep' [-> R']]]; [left; exact I | right; exists ep'; split; [reflexivity | exact R']].
  - apply bind_inv in Hc. destruct Hc as [cc [i1 [Hcc Hc]]].
    rewrite (plain_cond st Pl) in Hcc.
    destruct el as [el|].
    + destruct aty; [discriminate Hs|].
      apply andb_true_iff in Hs. destruct Hs as [Hs Hel]. apply andb_true_iff in Hs. destruct Hs as [Hcnd Ht].
      rewrite (conv_pure (size c0) c0 (le_n _) Hcnd st i Pl) in Hcc. injection Hcc as <- <-.
      cbn [andb] in Hc.
      apply bind_inv in Hc. destruct Hc as [ct [i2 [Hct Hc]]].
      apply bind_inv in Hc. destruct Hc as [ce [i3 [Hce Hc]]]. unfold ret in Hc. injection Hc as <- <-.
      pose proof (pure_sim f c0 Hcnd (tup_lit st) fe Hfe' em ep (proj1 R)) as Sc.
      cbn [mev_dev mev1 PySem.exec]. expr_step Sc R. intro w.
      destruct w; try (left; reflexivity).
      destruct b; cbn [PySem.ebind truthy].
      * apply (IH t Ht st i ct i2 (conj Pl Hdf) Hct fs fe em ep Hfs' Hfe' R).
      * apply (IH el Hel st i2 ce i3 (conj Pl Hdf) Hce fs fe em ep Hfs' Hfe' R).
    + apply andb_true_iff in Hs. destruct Hs as [Hcnd Ht].
      rewrite (conv_pure (size c0) c0 (le_n _) Hcnd st i Pl) in Hcc. injection Hcc as <- <-.
      apply bind_inv in Hc. destruct Hc as [ct [i2 [Hct Hc]]]. unfold ret in Hc. injection Hc as <- <-.
      pose proof (pure_sim f c0 Hcnd (tup_lit st) fe Hfe' em ep (proj1 R)) as Sc.
      cbn [mev_dev mev1 PySem.exec]. expr_step Sc R. intro w.
      destruct w; try (left; reflexivity).
      destruct b; cbn [PySem.ebind truthy].
      * pose proof (IH t Ht st i ct i2 (conj Pl Hdf) Hct fs fe em ep Hfs' Hfe' R) as St.
        destruct (mev0 f t em) as [ov e1 | w e1 | x e1 | e1 | e1] eqn:Et; cbn in St; try contradiction; exact St.
      * exists ep. split; [reflexivity | exact R].
Qed.

Corollary simple_stmt_correct a st i c i' :
  simple a = true -> plain_stmt st -> conv a st i = Some (c, i') ->
  forall f fs fe em ep, f <= fs -> 2 * f <= fe -> srel em ep -> SRel (mev f a em) (pex fe fs c ep).
Proof. intros Hs Pst Hc f fs fe em ep Hfs Hfe R. exact (conv_simple_sim f a Hs st i c i' Pst Hc fs fe em ep Hfs Hfe R). Qed.

Lemma srel_env0 : srel (@env0 ast) (@env0 core).
Proof. split; [intro x; reflexivity | split; reflexivity]. Qed.

(** non-vacuity: [def x := 1; def y := x + 2; if y > 2 then { x := y * 2; x += 3 } else pass; if x = 9 then y -= 1]
    is simple and converts (annotated); both sides end with x = 9, y = 2.  With [y <<= -1] in the last branch
    (converted without annotations) both sides raise the same exception with the same variables *)
Definition sample_stmt (op : nodeop) (operand : string) : ast :=
  let lit s := A None (NInt s) in
  let v s := A None (NId s) in
  A None (NBlock [
    A None (NVarDef (v "x") None (Some (lit "1")));
    A None (NVarDef (v "y") None (Some (A None (NBin SAdd (v "x") (lit "2")))));
    A None (NIfElse (A None (NBin SGe (v "y") (lit "2")))
              (A None (NBlock [A None (NReassign (v "x") (A None (NBin SMul (v "y") (lit "2"))) NAssign);
                               A None (NReassign (v "x") (lit "3") NAdd)]))
              (Some (A None NPass)));
    A None (NIfElse (A None (NBin SEq (v "x") (lit "9")))
              (A None (NReassign (v "y") (lit operand) op)) None)]).

Definition final_vars {B} (e : env B) : option value * option value := (lookup_var "x" e, lookup_var "y" e).

Example sample_stmt_ok :
  simple (sample_stmt NSub "1") = true /\ plain_stmt (state0 true)
  /\ (exists e, mev 20 (sample_stmt NSub "1") env0 = MVal None e /\ final_vars e = (Some (VInt 9), Some (VInt 2)))
  /\ (exists c i e, conv (sample_stmt NSub "1") (state0 true) imports0 = Some (c, i)
                   /\ pex 40 20 c env0 = ONormal _ _ _ e /\ final_vars e = (Some (VInt 9), Some (VInt 2)))
  /\ (exists e, mev 20 (sample_stmt NBLShift "-1") env0 = MExc (rt_exc "ValueError") e
                /\ final_vars e = (Some (VInt 9), Some (VInt 3)))
  /\ (exists c i e, conv (sample_stmt NBLShift "-1") (state0 false) imports0 = Some (c, i)
                   /\ pex 40 20 c env0 = ORaise _ _ _ (rt_exc "ValueError") e
                   /\ final_vars e = (Some (VInt 9), Some (VInt 3))).
Proof.
  split; [reflexivity|]. split; [repeat split|].
  split; [eexists; split; vm_compute; reflexivity|].
  split; [do 3 eexists; split; [vm_compute; reflexivity | split; vm_compute; reflexivity]|].
  split; [eexists; split; vm_compute; reflexivity|].
  do 3 eexists; split; [vm_compute; reflexivity | split; vm_compute; reflexivity].
Qed.
