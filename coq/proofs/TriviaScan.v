(** * Scanning a prefix in isolation (used by C14)

    If the text [pre] is lexically complete ([splittable]: no string literal left open, no
    comment running to its very end unless a line break follows, no scanner error such as a
    carriage return at its end) and the text [R] that follows starts with a blank or a line
    break (or is empty), then lexing [pre ++ R] is lexing [pre] and continuing on [R] from the
    state reached ([loop_split]).  One lemma per scanner branch: on [a ++ R] the scanner does
    what it does on [a], with [R] appended to what is left ([scan_prefix]). *)
From Coq Require Import List Ascii ZArith Bool Lia Arith.
From MambaModel Require Import model.LexTok gen.LexTables model.Lex proofs.LexProps proofs.TotalProps
  model.Trivia proofs.TriviaFuel.
Import ListNotations.
Local Open Scope Z_scope.

Definition is_eolc (c : ascii) : bool := Ascii.eqb c c_nl || Ascii.eqb c c_cr.
Definition hd_stop (r : str) : bool := match r with [] => true | c :: _ => is_stop c end.
Definition hd_eol (r : str) : bool := match r with [] => true | c :: _ => is_eolc c end.

Definition map_rest (f : str -> str) (x : scanned) : scanned :=
  match x with
  | STok t r => STok t (f r)
  | SString c e r => SString c e (f r)
  | SSpace r => SSpace (f r)
  | SErr e => SErr e
  end.

(** [eol]: does a line break (or the end of input) follow the prefix? *)
Definition prefix_ok (eol : bool) (c : ascii) (a : str) : bool :=
  match scan c a with
  | SErr _ => false
  | STok (MComment _) [] => eol
  | SString content _ rest => str_eqb (c :: a) (c_quote :: content ++ c_quote :: rest)
  | _ => true
  end.

Lemma hd_eol_stop r : hd_eol r = true -> hd_stop r = true.
Proof. destruct r as [|x r]; [reflexivity|]. cbn. unfold is_stop, is_eolc. intros ->. reflexivity. Qed.

Lemma starts_with_cons x w c y :
  starts_with (x :: w) (c :: y) = Ascii.eqb x c && starts_with w y.
Proof. reflexivity. Qed.
Lemma starts_with_nil_l y : starts_with [] y = true.
Proof. reflexivity. Qed.

Lemma sw_app r : hd_stop r = true ->
  forall w y, stop_free w = true -> starts_with w (y ++ r) = starts_with w y.
Proof.
  intros Hr. induction w as [|x w IH]; intros y Hw; [reflexivity|].
  cbn [stop_free forallb] in Hw. apply andb_prop in Hw as [Hx Hw]. apply negb_true_iff in Hx.
  destruct y as [|c y].
  - cbn [app]. change (starts_with (x :: w) []) with false. destruct r as [|c r]; [reflexivity|].
    rewrite starts_with_cons. cbn [hd_stop] in Hr.
    destruct (Ascii.eqb_spec x c) as [->|]; [rewrite Hr in Hx; discriminate | reflexivity].
  - cbn [app]. rewrite !starts_with_cons. rewrite (IH y Hw). reflexivity.
Qed.

Lemma starts_with_len w y : starts_with w y = true -> (length w <= length y)%nat.
Proof. intros H. apply starts_with_split in H. rewrite H, app_length. lia. Qed.

Lemma skipn_app_le {A} n (y r : list A) : (n <= length y)%nat -> skipn n (y ++ r) = skipn n y ++ r.
Proof. intros H. rewrite skipn_app. replace (n - length y)%nat with 0%nat by lia. reflexivity. Qed.

Lemma mp_app r : hd_stop r = true ->
  forall tbl y, forallb (fun wt : str * token => stop_free (fst wt)) tbl = true ->
    match_prefix tbl (y ++ r) =
    match match_prefix tbl y with Some (t, rest) => Some (t, rest ++ r) | None => None end.
Proof.
  intros Hr. induction tbl as [|[w t] tbl IH]; intros y Ht; [reflexivity|].
  cbn [forallb fst] in Ht. apply andb_prop in Ht as [Hw Ht]. cbn [match_prefix].
  rewrite (sw_app r Hr w y Hw). destruct (starts_with w y) eqn:Hs.
  - rewrite skipn_app_le by (apply starts_with_len, Hs). reflexivity.
  - apply IH, Ht.
Qed.

Definition ops_part : list (str * token) := map (fun t => (spell t, t)) op_tokens.

Lemma ops_part_ok w t :
  In (w, t) ops_part -> stop_free w = true /\ exists x w', w = x :: w' /\ Ascii.eqb x c_hash = false.
Proof.
  intros H. apply in_map_iff in H as (u & Hu & Hin). inversion Hu; subst.
  destruct (op_token_ok t Hin) as (_ & H1 & H2). split; assumption.
Qed.

Lemma ops_stop_free : forallb (fun wt : str * token => stop_free (fst wt)) ops_part = true.
Proof. apply forallb_forall. intros [w t] H. apply (ops_part_ok w t H). Qed.

Lemma mp_ops_only c y :
  Ascii.eqb c_nl c = false -> starts_with [c_cr; c_nl] (c :: y) = false ->
  match_prefix op_table (c :: y) = match_prefix ops_part (c :: y).
Proof.
  intros Hnl Hcr. change op_table with (([c_cr; c_nl], MNL) :: ([c_nl], MNL) :: ops_part).
  cbn [match_prefix]. rewrite Hcr, starts_with_cons, Hnl. reflexivity.
Qed.

Lemma sw_crnl c y : Ascii.eqb c_cr c = false -> starts_with [c_cr; c_nl] (c :: y) = false.
Proof. intros H. rewrite starts_with_cons, H. reflexivity. Qed.

Lemma ops_first c r : is_stop c = true \/ c = c_hash -> match_prefix ops_part (c :: r) = None.
Proof.
  intros Hc. generalize ops_part ops_part_ok. intros tbl. induction tbl as [|[w t] tbl IH]; intros Hok; [reflexivity|].
  cbn [match_prefix]. destruct (Hok w t (or_introl eq_refl)) as (Hs & x & w' & -> & Hh).
  rewrite starts_with_cons. replace (Ascii.eqb x c) with false.
  - apply IH. intros w0 t0 H. apply (Hok w0 t0). right. exact H.
  - symmetry. destruct (Ascii.eqb_spec x c) as [->|]; [|reflexivity].
    cbn [stop_free forallb] in Hs. apply andb_prop in Hs as [Hs _]. apply negb_true_iff in Hs.
    destruct Hc as [Hc | ->]; [congruence | discriminate Hh].
Qed.

Lemma scan_cr_other x r : Ascii.eqb c_nl x = false -> scan c_cr (x :: r) = SErr ErrCR.
Proof.
  intros Hx. unfold scan. rewrite (mp_ops_only c_cr (x :: r) eq_refl).
  - rewrite ops_first by (left; reflexivity). reflexivity.
  - rewrite !starts_with_cons, Hx. apply andb_false_r.
Qed.

Lemma scan_sp r : scan c_sp r = SSpace r.
Proof.
  unfold scan. rewrite (mp_ops_only c_sp r eq_refl (sw_crnl c_sp r eq_refl)).
  rewrite ops_first by (left; reflexivity). reflexivity.
Qed.

Lemma tw_app p r : forall a w b,
  take_while p a = (w, b) ->
  (b = [] -> match r with [] => True | x :: _ => p x = false end) ->
  take_while p (a ++ r) = (w, b ++ r).
Proof.
  induction a as [|c a IH]; intros w b H Hr.
  - cbn in H. inversion H; subst. specialize (Hr eq_refl). cbn [app].
    destruct r as [|x r]; [reflexivity|]. cbn [take_while]. rewrite Hr. reflexivity.
  - cbn [take_while app] in *. destruct (p c).
    + destruct (take_while p a) as [w' b'] eqn:Ht. inversion H; subst.
      rewrite (IH w' b eq_refl Hr). reflexivity.
    + inversion H; subst. reflexivity.
Qed.

Lemma tw_full p a : forallb p a = true -> take_while p a = (a, []).
Proof.
  induction a as [|c a IH]; [reflexivity|]. cbn [forallb take_while]. intros H.
  apply andb_prop in H as [Hc Ha]. rewrite Hc, (IH Ha). reflexivity.
Qed.

Lemma not_eol_eolc c : not_eol c = negb (is_eolc c).
Proof. unfold not_eol, is_eolc. destruct (Ascii.eqb c c_nl), (Ascii.eqb c c_cr); reflexivity. Qed.

Lemma eol_not_eol R :
  hd_eol R = true -> match R with [] => True | x :: _ => not_eol x = false end.
Proof. destruct R as [|x R]; [trivial|]. cbn [hd_eol]. rewrite not_eol_eolc. intros ->. reflexivity. Qed.

Lemma scan_hash text R :
  no_eol text = true -> hd_eol R = true -> scan c_hash (text ++ R) = STok (MComment text) R.
Proof.
  intros Ht HR. unfold scan. rewrite (mp_ops_only c_hash (text ++ R) eq_refl (sw_crnl c_hash _ eq_refl)).
  rewrite ops_first by (right; reflexivity).
  change (Ascii.eqb c_hash c_hash) with true. cbv iota.
  rewrite (tw_app not_eol R text text [] (tw_full _ _ Ht)); [reflexivity|].
  intros _. apply eol_not_eol, HR.
Qed.

Lemma stop_elim (p : ascii -> bool) x :
  p c_nl = false -> p c_cr = false -> p c_sp = false -> is_stop x = true -> p x = false.
Proof.
  intros H1 H2 H3 H. unfold is_stop in H.
  apply orb_prop in H as [H | H]; [apply orb_prop in H as [H | H]|]; apply Ascii.eqb_eq in H; subst; assumption.
Qed.

Lemma sn_app r : hd_stop r = true ->
  forall s f1 f2 num exp fl en,
    (length s < f1)%nat -> (length (s ++ r) < f2)%nat ->
    scan_number f2 num exp fl en (s ++ r)
    = (fst (scan_number f1 num exp fl en s), snd (scan_number f1 num exp fl en s) ++ r).
Proof.
  intros Hr. induction s as [|c s IH]; intros f1 f2 num exp fl en H1 H2.
  - destruct f1 as [|f1]; [cbn in H1; lia|]. destruct f2 as [|f2]; [lia|].
    cbn [app scan_number fst snd]. destruct r as [|x r]; [reflexivity|]. cbn [hd_stop] in Hr.
    rewrite (stop_elim is_digit x), (stop_elim (fun y => Ascii.eqb y c_E) x),
      (stop_elim (fun y => Ascii.eqb y c_dot) x) by (reflexivity || exact Hr). reflexivity.
  - destruct f1 as [|f1]; [cbn in H1; lia|]. destruct f2 as [|f2]; [lia|].
    cbn [length app] in *. cbn [scan_number].
    assert (L1 : (length s < f1)%nat) by lia. assert (L2 : (length (s ++ r) < f2)%nat) by lia.
    destruct (is_digit c).
    + destruct en; apply IH; assumption.
    + destruct (Ascii.eqb c c_E).
      * destruct en; [reflexivity|]. apply IH; assumption.
      * destruct (Ascii.eqb c c_dot); [|reflexivity].
        destruct (fl || en); [reflexivity|].
        destruct s as [|c2 s2].
        -- cbn [app]. destruct r as [|x r]; [apply (IH f1 f2); assumption|].
           cbn [hd_stop] in Hr. rewrite (stop_elim (fun y => Ascii.eqb y c_dot) x) by (reflexivity || exact Hr).
           apply (IH f1 f2); assumption.
        -- cbn [app]. destruct (Ascii.eqb c2 c_dot); [reflexivity|]. apply (IH f1 f2); assumption.
Qed.

Lemma ss_mono : forall s st st' rest,
  scan_string st s = (st', rest) -> (length (s_content st) <= length (s_content st'))%nat.
Proof.
  induction s as [|c s IH]; intros st st' rest H.
  - cbn in H. inversion H; subst. lia.
  - rewrite scan_string_unfold in H. destruct (sstop st c).
    + inversion H; subst. lia.
    + apply IH in H. rewrite sstep_content, app_length in H. cbn [length] in H. lia.
Qed.

(** the length condition says that the literal is closed inside [w] *)
Lemma ss_replace : forall w st st' rest,
  scan_string st (w ++ rest) = (st', rest) ->
  (length (s_content st') < length (s_content st) + length w)%nat ->
  forall rest2, scan_string st (w ++ rest2) = (st', rest2).
Proof.
  induction w as [|c w IH]; intros st st' rest H Hl rest2.
  - apply ss_mono in H. cbn [length] in Hl. lia.
  - cbn [app] in *. rewrite scan_string_unfold in *. destruct (sstop st c).
    + inversion H as [[Hst Hw]]. assert (w = []).
      { apply (f_equal (@length _)) in Hw. rewrite app_length in Hw. destruct w; [reflexivity | cbn in Hw; lia]. }
      subst w. reflexivity.
    + apply (IH _ _ rest); [exact H|]. rewrite sstep_content, app_length. cbn [length] in *. lia.
Qed.

Theorem scan_prefix c a r :
  hd_stop r = true -> prefix_ok (hd_eol r) c a = true ->
  scan c (a ++ r) = map_rest (fun b => b ++ r) (scan c a).
Proof.
  intros Hr Hok.
  destruct (Ascii.eqb_spec c_nl c) as [<-|Hnl]; [rewrite !scan_nl; reflexivity|].
  apply Ascii.eqb_neq in Hnl. unfold prefix_ok in Hok.
  (* a carriage return is accepted only as the first half of a line break *)
  destruct (Ascii.eqb_spec c_cr c) as [<-|Hcr].
  { destruct a as [|x a]; [rewrite scan_cr_nil in Hok; discriminate Hok|].
    destruct (Ascii.eqb_spec c_nl x) as [<-|Hx]; [cbn [app]; rewrite !scan_crnl; reflexivity|].
    rewrite scan_cr_other in Hok by (apply Ascii.eqb_neq, Hx). discriminate Hok. }
  apply Ascii.eqb_neq in Hcr. unfold scan in *.
  rewrite (mp_ops_only c (a ++ r) Hnl (sw_crnl c _ Hcr)). rewrite (mp_ops_only c a Hnl (sw_crnl c _ Hcr)) in *.
  change (c :: a ++ r) with ((c :: a) ++ r). rewrite (mp_app r Hr ops_part (c :: a) ops_stop_free).
  destruct (match_prefix ops_part (c :: a)) as [[t0 rest0]|]; [reflexivity|].
  destruct (Ascii.eqb c c_hash).
  { destruct (take_while not_eol a) as [cm rest] eqn:Ht.
    rewrite (tw_app not_eol r a cm rest Ht); [reflexivity|]. intros ->. apply eol_not_eol, Hok. }
  destruct (Ascii.eqb c c_quote).
  { fold ss0 in *. destruct (scan_string ss0 a) as [st rest] eqn:Hs.
    apply str_eqb_eq in Hok. injection Hok as _ Ha.
    replace (a ++ r) with ((s_content st ++ [c_quote]) ++ rest ++ r) by (rewrite Ha, <- !app_assoc; reflexivity).
    rewrite (ss_replace (s_content st ++ [c_quote]) ss0 st rest); [reflexivity | |].
    - rewrite <- app_assoc. cbn [app]. rewrite <- Ha. exact Hs.
    - rewrite app_length. cbn. lia. }
  destruct (Ascii.eqb c c_sp); [reflexivity|].
  destruct (Ascii.eqb c c_cr); [discriminate Hok|].
  destruct (Ascii.eqb c (ch 33)); [discriminate Hok|].
  destruct (is_digit c).
  { rewrite (sn_app r Hr a (S (length a)) (S (length (a ++ r))) [c] [] false false) by lia.
    destruct (scan_number (S (length a)) [c] [] false false a) as [[[[number exp] float] e_num] rest].
    reflexivity. }
  destruct (is_id_start c); [|discriminate Hok].
  destruct (take_while is_id_char a) as [w rest] eqn:Ht.
  rewrite (tw_app is_id_char r a w rest Ht); [reflexivity|].
  intros _. destruct r as [|x r]; [exact I | apply (stop_elim is_id_char x); [reflexivity.. | exact Hr]].
Qed.

Definition scan_rest (x : scanned) : option str :=
  match x with SErr _ => None | SSpace rest | STok _ rest | SString _ _ rest => Some rest end.

Fixpoint splittable (eol : bool) (fuel : nat) (s : str) : bool :=
  match fuel with
  | O => true
  | S fuel =>
      match s with
      | [] => true
      | c :: r =>
          prefix_ok eol c r &&
          match scan_rest (scan c r) with Some rest => splittable eol fuel rest | None => true end
      end
  end.

Definition map_step (f : str -> str) (x : stepres) : stepres :=
  match x with Next rest st out => Next (f rest) st out | other => other end.

Lemma step_map f d c r r' st :
  scan c r' = map_rest f (scan c r) -> step d c r' st = map_step f (step d c r st).
Proof.
  intros H. unfold step, emit. rewrite H.
  destruct (scan c r) as [t rest | content exprs rest | rest | e]; cbn [map_rest map_step]; try reflexivity.
  - destruct (is_nl t); reflexivity.
  - destruct (nest_all d (pos st) exprs) as [[inn|]|e]; reflexivity.
Qed.

Lemma step_next_rest d c a st rest st1 out :
  step d c a st = Next rest st1 out -> scan_rest (scan c a) = Some rest.
Proof.
  intros H. apply step_cases in H as [(-> & _) | [(-> & _) | (t & inn & _ & H & _)]]; try reflexivity.
  destruct (scan c a); inversion H; reflexivity.
Qed.

Lemma loop_split fuel : forall pre st acc st' acc' R F,
  hd_stop R = true -> splittable (hd_eol R) fuel pre = true -> (length pre < fuel)%nat ->
  tok_loop fuel pre st acc = inl (inl (st', acc')) -> (length (pre ++ R) < F)%nat ->
  tok_loop F (pre ++ R) st acc = tok_loop (S (length R)) R st' acc'.
Proof.
  induction fuel as [|fuel IH]; intros pre st acc st' acc' R F HR Hs Hlen H HF; [lia|].
  destruct pre as [|c a].
  - rewrite tok_loop_nil in H. inversion H; subst. apply loop_fuel, HF.
  - destruct F as [|F]; [lia|]. cbn [splittable] in Hs. apply andb_prop in Hs as [Hok Hrest].
    cbn [app length] in *. rewrite app_length in HF. rewrite tok_loop_step in *.
    rewrite (step_map _ _ c a (a ++ R) st (scan_prefix c a R HR Hok)).
    rewrite (step_ext (direct F) (direct fuel) c a st)
      by (intros e He; apply fuel_irrel; lia).
    destruct (step (direct fuel) c a st) as [e| |rest st1 out] eqn:Hst; try discriminate H.
    cbn [map_step]. rewrite (step_next_rest _ _ _ _ _ _ _ Hst) in Hrest.
    apply step_next_len in Hst. apply IH; [assumption.. | lia | assumption | rewrite app_length; lia].
Qed.
