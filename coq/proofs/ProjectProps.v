(** The driver of [model/Project.v] (property C13).  [mamba_to_python] is rewritten with filters and [guard]s
    ([m2p_spec]); its success and error cases are read off that form.  A [Context] is treated as a choice of
    representatives ([covers]) of the list of ALL declarations: which duplicate a [HashSet] keeps, and what it
    enumerates first, stops mattering once look-up names are unique.  The file-system theorems rest on
    [write_all_spec] and [write_all_pick] of [ProjectFs]. *)
From Coq Require Import List String Ascii Bool Arith Lia Permutation.
Import ListNotations.
From MambaModel Require Import model.Project proofs.ProjectFs.
Local Open Scope string_scope.
Local Open Scope list_scope.

Lemma Forall2_len : forall (A B : Type) (R : A -> B -> Prop) l l', Forall2 R l l' -> List.length l = List.length l'.
Proof. induction 1; cbn; congruence. Qed.

Lemma forall2_impl_in : forall (A B : Type) (R R' : A -> B -> Prop) l l',
  Forall2 R l l' -> (forall x y, In x l -> R x y -> R' x y) -> Forall2 R' l l'.
Proof.
  induction 1; intros H1; constructor; [apply H1; [now left | assumption]|].
  apply IHForall2. intros a b Ia. apply H1. now right.
Qed.

Definition guard {A B E : Type} (g : list A -> list E) (es : list A) (k : res B (list E)) : res B (list E) :=
  match es with [] => k | _ => Err (g es) end.

Lemma guard_ok : forall (A B E : Type) (g : list A -> list E) es k (x : B), guard g es k = Ok x <-> es = [] /\ k = Ok x.
Proof. intros A B E g [|e es] k x; cbn; split; [auto | now intros [_ H] | discriminate | now intros [H _]]. Qed.

Lemma guard_err : forall (A B E : Type) (g : list A -> list E) es (k : res B (list E)) x,
  guard g es k = Err x <-> (es <> [] /\ x = g es) \/ (es = [] /\ k = Err x).
Proof.
  intros A B E g [|e es] k x; cbn; split.
  - right; auto.
  - intros [[H _]|[_ H]]; [now destruct H | assumption].
  - intros [= <-]. left. split; [discriminate | reflexivity].
  - intros [[_ ->]|[H _]]; [reflexivity | discriminate].
Qed.

Section Props.
  Variable W : world.
  Notation E := (err (w_msg W)).
  Notation LK := (lookups (w_centry W) (w_dentry W) (w_fentry W)).

  Definition stripped (dir : path) (source : list input) : list input :=
    map (fun sp : input => (fst sp, option_map (strip_prefix dir) (snd sp))) source.

  Definition parse_errs (src : list input) : list E :=
    flat_map (fun sp : input => match w_parse W (fst sp) with Err m => [EStage SParse (snd sp) m] | Ok _ => [] end) src.
  Definition parse_oks (src : list input) : list (w_ast W * option path) :=
    flat_map (fun sp : input => match w_parse W (fst sp) with Ok a => [(a, snd sp)] | Err _ => [] end) src.
  Definition asts_of (src : list input) : list (w_ast W) :=
    flat_map (fun sp : input => match w_parse W (fst sp) with Ok a => [a] | Err _ => [] end) src.

  Definition check_errs (lk : LK) (l : list (w_ast W * option path)) : list (list E) :=
    flat_map (fun ap => match w_check W lk (fst ap) with
                        | Err ms => [map (EStage SCheck (snd ap)) ms] | Ok _ => [] end) l.
  Definition check_oks (lk : LK) (l : list (w_ast W * option path)) : list (w_tast W * option path) :=
    flat_map (fun ap => match w_check W lk (fst ap) with Ok t => [(t, snd ap)] | Err _ => [] end) l.

  Definition gen_errs (ann : bool) (lk : LK) (l : list (w_tast W * option path)) : list E :=
    flat_map (fun tp => match w_gen W ann lk (fst tp) with
                        | Err m => [EStage SGen (snd tp) m] | Ok _ => [] end) l.
  Definition gen_oks (ann : bool) (lk : LK) (l : list (w_tast W * option path)) : list string :=
    flat_map (fun tp => match w_gen W ann lk (fst tp) with Ok py => [py] | Err _ => [] end) l.

  Lemma parse_all_eq : forall src, parse_all (w_parse W) src = (parse_oks src, parse_errs src).
  Proof.
    induction src as [|[s p] src IH]; [reflexivity|]. cbn [parse_all]. rewrite IH.
    unfold parse_oks, parse_errs. cbn [flat_map fst snd]. destruct (w_parse W s); reflexivity.
  Qed.

  Lemma check_all_eq : forall lk l, check_all (w_check W) lk l = (check_oks lk l, check_errs lk l).
  Proof.
    intros lk. induction l as [|[a p] l IH]; [reflexivity|]. cbn [check_all]. rewrite IH.
    unfold check_oks, check_errs. cbn [flat_map fst snd]. destruct (w_check W lk a); reflexivity.
  Qed.

  Lemma gen_all_eq : forall ann lk l, gen_all (w_gen W) ann lk l = (gen_oks ann lk l, gen_errs ann lk l).
  Proof.
    intros ann lk. induction l as [|[t p] l IH]; [reflexivity|]. cbn [gen_all]. rewrite IH.
    unfold gen_oks, gen_errs. cbn [flat_map fst snd]. destruct (w_gen W ann lk t); reflexivity.
  Qed.

  Lemma asts_of_oks : forall dir source, map fst (parse_oks (stripped dir source)) = asts_of source.
  Proof.
    intros dir. induction source as [|[s p] source IH]; [reflexivity|]. unfold parse_oks, asts_of, stripped in *.
    cbn [map flat_map fst snd]. rewrite map_app, IH. destruct (w_parse W s); reflexivity.
  Qed.

  (** [mamba_to_python] with the partitions written as filters and each "stop if this stage rejected
      something" as a [guard] *)
  Definition m2p_spec (ord : enumeration) (ann : bool) (source : list input) (dir : path)
    : res (list string) (list E) :=
    let src := stripped dir source in
    guard (fun es => es) (parse_errs src)
      match w_build_ctx W (asts_of source) with
      | Err ms => Err match w_ctx_blame W (parse_oks src) with
                      | [] => map (EStage SCtx None) ms
                      | es => es
                      end
      | Ok ctx =>
          let lk := w_lookups W ord ctx in
          guard (@List.concat E) (check_errs lk (parse_oks src))
            (guard (fun es => es) (gen_errs ann lk (check_oks lk (parse_oks src)))
               (Ok (gen_oks ann lk (check_oks lk (parse_oks src)))))
      end.

  Lemma m2p_eq : forall ord ann source dir, m2p W ord ann source dir = m2p_spec ord ann source dir.
  Proof.
    intros ord ann source dir. unfold m2p, mamba_to_python, m2p_spec, guard.
    fold (stripped dir source). rewrite parse_all_eq.
    destruct (parse_errs (stripped dir source)) as [|e es]; [|reflexivity].
    rewrite asts_of_oks. fold (w_build_ctx W (asts_of source)).
    destruct (w_build_ctx W (asts_of source)) as [ctx|ms].
    2:{ fold (w_ctx_blame W (parse_oks (stripped dir source))). now destruct (w_ctx_blame W _). }
    cbv zeta. unfold w_lookups. rewrite check_all_eq.
    destruct (check_errs _ _) as [|e es]; [|reflexivity].
    rewrite gen_all_eq. destruct (gen_errs _ _ _) as [|e es]; reflexivity.
  Qed.

  Definition file_out (ann : bool) (lk : LK) (s : string) : option string :=
    match w_parse W s with
    | Ok a => match w_check W lk a with
              | Ok t => match w_gen W ann lk t with Ok py => Some py | Err _ => None end
              | Err _ => None
              end
    | Err _ => None
    end.

  Lemma chain_iff : forall ann lk dir source pys,
    Forall2 (fun (sp : input) py => file_out ann lk (fst sp) = Some py) source pys <->
    parse_errs (stripped dir source) = [] /\ check_errs lk (parse_oks (stripped dir source)) = [] /\
    gen_errs ann lk (check_oks lk (parse_oks (stripped dir source))) = [] /\
    gen_oks ann lk (check_oks lk (parse_oks (stripped dir source))) = pys.
  Proof.
    intros ann lk dir. induction source as [|[s p] source IH]; intros pys.
    { split; [intro H; inversion H; repeat split | intros (_ & _ & _ & <-); constructor]. }
    unfold parse_errs, parse_oks, check_errs, check_oks, gen_errs, gen_oks, stripped. cbn [map flat_map fst snd]. split.
    - intro H. inversion H as [|? py ? pys' F H']; subst. apply IH in H'. destruct H' as (I1 & I2 & I3 & <-).
      unfold file_out in F. cbn [fst] in F.
      destruct (w_parse W s) as [a|m]; [|discriminate]. cbn [app flat_map fst snd].
      destruct (w_check W lk a) as [t|ms]; [|discriminate]. cbn [app flat_map fst snd].
      destruct (w_gen W ann lk t) as [py'|m]; [|discriminate]. injection F as ->. now repeat split.
    - destruct (w_parse W s) as [a|m] eqn:P; [|intros [? _]; discriminate]. cbn [app flat_map fst snd].
      destruct (w_check W lk a) as [t|ms] eqn:C; [|intros (_ & ? & _); discriminate]. cbn [app flat_map fst snd].
      destruct (w_gen W ann lk t) as [py|m] eqn:G; [|intros (_ & _ & ? & _); discriminate]. cbn [app].
      intros (I1 & I2 & I3 & <-).
      constructor; [unfold file_out; cbn [fst]; now rewrite P, C, G | now apply IH].
  Qed.

  Theorem m2p_ok_iff : forall ord ann source dir pys,
    m2p W ord ann source dir = Ok pys <->
    exists ctx, w_build_ctx W (asts_of source) = Ok ctx /\
                Forall2 (fun (sp : input) py => file_out ann (w_lookups W ord ctx) (fst sp) = Some py) source pys.
  Proof.
    intros ord ann source dir pys. rewrite m2p_eq. unfold m2p_spec. cbv zeta. rewrite guard_ok. split.
    - intros [P H]. destruct (w_build_ctx W _) as [ctx|ms]; [|discriminate].
      rewrite !guard_ok in H. destruct H as (C & G & [= <-]).
      exists ctx. split; [reflexivity|]. now apply (chain_iff _ _ dir).
    - intros (ctx & B & F). rewrite B, !guard_ok. apply (chain_iff _ _ dir) in F.
      destruct F as (P & C & G & <-). auto.
  Qed.

  Lemma in_parse_errs : forall src e, In e (parse_errs src) <->
    exists s p m, In (s, p) src /\ w_parse W s = Err m /\ e = EStage SParse p m.
  Proof.
    intros src e. unfold parse_errs. rewrite in_flat_map. split.
    - intros ([s p] & I & H). cbn [fst snd] in H. destruct (w_parse W s) as [a|m] eqn:P; [destruct H|].
      destruct H as [<-|[]]. now exists s, p, m.
    - intros (s & p & m & I & P & ->). exists (s, p). split; [assumption|]. cbn [fst snd]. rewrite P. now left.
  Qed.

  Lemma in_stripped : forall dir source s p, In (s, p) (stripped dir source) <->
    exists p0, In (s, p0) source /\ p = option_map (strip_prefix dir) p0.
  Proof.
    intros dir source s p. unfold stripped. rewrite in_map_iff. split.
    - intros ([s0 p0] & [= <- <-] & I). now exists p0.
    - intros (p0 & I & ->). now exists (s, p0).
  Qed.

  Lemma in_parse_oks : forall dir source a p, In (a, p) (parse_oks (stripped dir source)) <->
    exists s p0, In (s, p0) source /\ p = option_map (strip_prefix dir) p0 /\ w_parse W s = Ok a.
  Proof.
    intros dir source a p. unfold parse_oks. rewrite in_flat_map. split.
    - intros ([s q] & I & H). cbn [fst snd] in H. destruct (w_parse W s) as [a'|m] eqn:P; [|destruct H].
      destruct H as [[= <- <-]|[]]. apply in_stripped in I. destruct I as (p0 & I & ->). now exists s, p0.
    - intros (s & p0 & I & -> & P). exists (s, option_map (strip_prefix dir) p0).
      split; [apply in_stripped; now exists p0|]. cbn [fst snd]. rewrite P. now left.
  Qed.

  Lemma in_check_errs : forall lk l x, In x (check_errs lk l) <->
    exists a p ms, In (a, p) l /\ w_check W lk a = Err ms /\ x = map (EStage SCheck p) ms.
  Proof.
    intros lk l x. unfold check_errs. rewrite in_flat_map. split.
    - intros ([a p] & I & H). cbn [fst snd] in H. destruct (w_check W lk a) as [t|ms] eqn:C; [destruct H|].
      destruct H as [<-|[]]. now exists a, p, ms.
    - intros (a & p & ms & I & C & ->). exists (a, p). split; [assumption|]. cbn [fst snd]. rewrite C. now left.
  Qed.

  Lemma in_concat_check_errs : forall lk l e, In e (List.concat (check_errs lk l)) <->
    exists a p ms m, In (a, p) l /\ w_check W lk a = Err ms /\ In m ms /\ e = EStage SCheck p m.
  Proof.
    intros lk l e. rewrite in_concat. split.
    - intros (x & I & Hx). apply in_check_errs in I. destruct I as (a & p & ms & I & C & ->).
      apply in_map_iff in Hx. destruct Hx as (m & <- & Im). now exists a, p, ms, m.
    - intros (a & p & ms & m & I & C & Im & ->). exists (map (EStage SCheck p) ms).
      split; [apply in_check_errs; now exists a, p, ms | now apply in_map].
  Qed.

  Lemma in_check_oks : forall lk l t p, In (t, p) (check_oks lk l) <-> exists a, In (a, p) l /\ w_check W lk a = Ok t.
  Proof.
    intros lk l t p. unfold check_oks. rewrite in_flat_map. split.
    - intros ([a q] & I & H). cbn [fst snd] in H. destruct (w_check W lk a) as [t'|ms] eqn:C; [|destruct H].
      destruct H as [[= <- <-]|[]]. now exists a.
    - intros (a & I & C). exists (a, p). split; [assumption|]. cbn [fst snd]. rewrite C. now left.
  Qed.

  Lemma in_gen_errs : forall ann lk l e, In e (gen_errs ann lk l) <->
    exists t p m, In (t, p) l /\ w_gen W ann lk t = Err m /\ e = EStage SGen p m.
  Proof.
    intros ann lk l e. unfold gen_errs. rewrite in_flat_map. split.
    - intros ([t p] & I & H). cbn [fst snd] in H. destruct (w_gen W ann lk t) as [py|m] eqn:G; [destruct H|].
      destruct H as [<-|[]]. now exists t, p, m.
    - intros (t & p & m & I & G & ->). exists (t, p). split; [assumption|]. cbn [fst snd]. rewrite G. now left.
  Qed.

  Notation collectW := (collect (w_c_key W) (w_f_key W) (w_d_name W) (w_decls_of W)).

  Lemma build_ctx_single : forall a ms, w_build_ctx W [a] = Err ms <-> w_decls_of W a = Err ms.
  Proof.
    intros a ms. unfold w_build_ctx, build_ctx. cbn [collect]. destruct (w_decls_of W a) as [d|ms'].
    - split; discriminate.
    - split; intros [= ->]; reflexivity.
  Qed.

  (** the shared context fails exactly when some file's declarations do, and then with that file's messages *)
  Lemma collect_cases : forall asts acc,
    match collectW asts acc with
    | Ok _ => forall a, In a asts -> exists d, w_decls_of W a = Ok d
    | Err ms => exists a, In a asts /\ w_decls_of W a = Err ms
    end.
  Proof.
    induction asts as [|a asts IH]; intros acc; cbn [collect]; [intros a []|].
    destruct (w_decls_of W a) as [d|ms] eqn:D; [|exists a; split; [now left | exact D]].
    specialize (IH (merge (w_c_key W) (w_f_key W) (w_d_name W) acc d)). destruct (collectW asts _) as [d'|ms].
    - intros b [<-|I]; [now exists d | now apply IH].
    - destruct IH as (b & I & E). exists b. split; [now right | exact E].
  Qed.

  Lemma build_ctx_cases : forall asts,
    match w_build_ctx W asts with
    | Ok _ => forall a, In a asts -> exists d, w_decls_of W a = Ok d
    | Err ms => exists a, In a asts /\ w_build_ctx W [a] = Err ms
    end.
  Proof.
    intros asts. unfold w_build_ctx at 1, build_ctx. generalize (collect_cases asts no_decls).
    destruct (collectW asts no_decls) as [d|ms]; [auto|]. intros (a & I & D). exists a. split; [exact I | now apply build_ctx_single].
  Qed.

  Lemma build_ctx_ok_iff : forall asts,
    (exists ctx, w_build_ctx W asts = Ok ctx) <-> (forall a, In a asts -> exists d, w_decls_of W a = Ok d).
  Proof.
    intros asts. generalize (build_ctx_cases asts). destruct (w_build_ctx W asts) as [ctx|ms].
    - intros F. split; [intros _; exact F | intros _; now exists ctx].
    - intros (a & I & B). apply build_ctx_single in B. split; [intros [ctx F]; discriminate|].
      intros F. destruct (F a I) as [d D]. congruence.
  Qed.

  Lemma in_ctx_blame : forall l e, In e (w_ctx_blame W l) <->
    exists a p ms m, In (a, p) l /\ w_build_ctx W [a] = Err ms /\ In m ms /\ e = EStage SCtx p m.
  Proof.
    intros l e. unfold w_ctx_blame, ctx_blame. rewrite in_flat_map. split.
    - intros ([a p] & I & H). cbn [fst snd] in H. fold (w_build_ctx W [a]) in H.
      destruct (w_build_ctx W [a]) as [c|ms] eqn:B; [destruct H|].
      apply in_map_iff in H. destruct H as (m & <- & Im). now exists a, p, ms, m.
    - intros (a & p & ms & m & I & B & Im & ->). exists (a, p). split; [assumption|]. cbn [fst snd].
      fold (w_build_ctx W [a]). rewrite B. now apply in_map.
  Qed.

  (** the fallback branch (no file fails alone) is only reached with an empty error list, so the
      context stage reports exactly [w_ctx_blame] *)
  Lemma ctx_errs_blame : forall l ms, w_build_ctx W (map fst l) = Err ms ->
    match w_ctx_blame W l with [] => map (EStage SCtx None) ms | es => es end = w_ctx_blame W l.
  Proof.
    intros l ms B. destruct (w_ctx_blame W l) as [|e0 es0] eqn:E; [|reflexivity].
    generalize (build_ctx_cases (map fst l)). rewrite B. intros (a & Ia & Ba).
    apply in_map_iff in Ia. destruct Ia as ([a' p] & <- & I). cbn [fst] in Ba.
    destruct ms as [|m ms]; [reflexivity|]. exfalso.
    assert (X : In (EStage SCtx p m) (w_ctx_blame W l)).
    { apply in_ctx_blame. exists a', p, (m :: ms), m. repeat split; try assumption. now left. }
    rewrite E in X. destruct X.
  Qed.

  Lemma m2p_err_cases : forall ord ann source dir es, m2p W ord ann source dir = Err es ->
    let src := stripped dir source in
    es = parse_errs src \/
    parse_errs src = [] /\
    ((exists ms, w_build_ctx W (asts_of source) = Err ms /\ es = w_ctx_blame W (parse_oks src)) \/
     exists ctx, w_build_ctx W (asts_of source) = Ok ctx /\
       (es = List.concat (check_errs (w_lookups W ord ctx) (parse_oks src)) \/
        es = gen_errs ann (w_lookups W ord ctx) (check_oks (w_lookups W ord ctx) (parse_oks src)))).
  Proof.
    intros ord ann source dir es. rewrite m2p_eq. unfold m2p_spec. cbv zeta. intro H.
    apply guard_err in H. destruct H as [[_ ->]|[P H]]; [now left|]. right. split; [assumption|].
    destruct (w_build_ctx W (asts_of source)) as [ctx|ms] eqn:B.
    - right. exists ctx. split; [reflexivity|].
      apply guard_err in H. destruct H as [[_ ->]|[_ H]]; [now left|]. right.
      apply guard_err in H. destruct H as [[_ ->]|[_ H]]; [reflexivity | discriminate].
    - left. exists ms. split; [reflexivity|]. injection H as <-. apply ctx_errs_blame.
      now rewrite asts_of_oks.
  Qed.

  Definition blames (ord : enumeration) (ann : bool) (source : list input) (dir : path) (e : E) : Prop :=
    match e with
    | EStage SParse p m =>
        exists s p0, In (s, p0) source /\ p = option_map (strip_prefix dir) p0 /\ w_parse W s = Err m
    | EStage SCheck p m =>
        exists s p0 a ctx ms, In (s, p0) source /\ p = option_map (strip_prefix dir) p0 /\ w_parse W s = Ok a /\
          w_build_ctx W (asts_of source) = Ok ctx /\ w_check W (w_lookups W ord ctx) a = Err ms /\ In m ms
    | EStage SGen p m =>
        exists s p0 a ctx t, In (s, p0) source /\ p = option_map (strip_prefix dir) p0 /\ w_parse W s = Ok a /\
          w_build_ctx W (asts_of source) = Ok ctx /\ w_check W (w_lookups W ord ctx) a = Ok t /\
          w_gen W ann (w_lookups W ord ctx) t = Err m
    | EStage SCtx p m =>
        exists s p0 a ms, In (s, p0) source /\ p = option_map (strip_prefix dir) p0 /\ w_parse W s = Ok a /\
          w_build_ctx W [a] = Err ms /\ In m ms
    | _ => False
    end.

  Lemma blames_path : forall ord ann source dir st p m, blames ord ann source dir (EStage st p m) ->
    exists s p0, In (s, p0) source /\ p = option_map (strip_prefix dir) p0.
  Proof.
    intros ord ann source dir st p m H. destruct st; cbn in H.
    - destruct H as (s & p0 & I & E & _). now exists s, p0.
    - destruct H as (s & p0 & a & ms & I & E & _). now exists s, p0.
    - destruct H as (s & p0 & a & ctx & ms & I & E & _). now exists s, p0.
    - destruct H as (s & p0 & a & ctx & t & I & E & _). now exists s, p0.
  Qed.

End Props.

Lemma insert_sorted_perm : forall p l, Permutation (insert_sorted p l) (p :: l).
Proof.
  intros p. induction l as [|q l IH]; cbn [insert_sorted]; [reflexivity|].
  destruct (path_leb p q); [reflexivity|]. rewrite IH. apply perm_swap.
Qed.

Lemma sort_perm : forall l, Permutation (sort_paths l) l.
Proof.
  induction l as [|p l IH]; cbn [sort_paths fold_right]; [constructor|].
  rewrite insert_sorted_perm. now constructor.
Qed.

Lemma nodup_map_on : forall (A B : Type) (f : A -> B) l,
  (forall x y, In x l -> In y l -> f x = f y -> x = y) -> NoDup l -> NoDup (map f l).
Proof.
  intros A B f. induction l as [|a l IH]; intros Inj D; cbn; [constructor|]. inversion D; subst. constructor.
  - intro F. apply in_map_iff in F. destruct F as (y & Fy & Iy).
    assert (y = a) by (apply Inj; [now right | now left | assumption]). now subst.
  - apply IH; [|assumption]. intros x y Ix Iy. apply Inj; now right.
Qed.

Lemma map_snd_combine : forall (A B : Type) (a : list A) (b : list B),
  List.length a = List.length b -> map snd (combine a b) = b.
Proof.
  intros A B. induction a as [|x a IH]; intros [|y b] H; cbn in *; try discriminate; try reflexivity.
  f_equal. apply IH. now injection H.
Qed.

Lemma combine_map_r : forall (A B C : Type) (f : B -> C) (a : list A) (b : list B),
  combine a (map f b) = map (fun p => (fst p, f (snd p))) (combine a b).
Proof. intros A B C f. induction a as [|x a IH]; intros [|y b]; cbn; [reflexivity..|now rewrite IH]. Qed.

Definition only_target_created (fs fs1 : FS) (o : path) : Prop :=
  fs1 = fs \/ (exists_ fs o = false /\ fs1 = fs_set fs o Dir).

Lemma prepare_spec : forall fs o fs1, prepare fs o = Some fs1 ->
  only_target_created fs fs1 o /\ exists_ fs1 o = true.
Proof.
  intros fs o fs1 H. unfold prepare in H. destruct (exists_ fs o) eqn:X.
  - injection H as <-. split; [now left | assumption].
  - unfold create_dir in H. rewrite X in H. destruct (is_dir fs (parent o)); [|discriminate].
    injection H as <-. split; [right; now split|].
    unfold exists_, is_dir. destruct o; [reflexivity|]. now rewrite get_set_same.
Qed.

Lemma prepare_keys : forall fs od fs1, prepare fs od = Some fs1 -> NoDup (map fst fs) ->
  NoDup (map fst fs1) /\ (forall p, In p (map fst fs1) -> In p (map fst fs) \/ p = od).
Proof.
  intros fs od fs1 P D. destruct (prepare_spec _ _ _ P) as [[->|[X ->]] _].
  - split; [assumption | intros p Hp; now left].
  - split; [now apply set_nodup|]. intros p Hp.
    destruct (set_keys fs od Dir) as [E|[_ E]]; rewrite E in Hp; [now left|].
    apply in_app_or in Hp. destruct Hp as [Hp|[<-|[]]]; [now left | now right].
Qed.

Lemma not_exists_get : forall fs o, exists_ fs o = false -> o <> [] /\ fs_get fs o = None.
Proof.
  intros fs o H. unfold exists_, is_dir, is_file in H. destruct o; [discriminate|]. split; [discriminate|].
  destruct (fs_get fs (s :: o)) as [[t|]|]; cbn in H; congruence.
Qed.

Lemma only_target_get : forall fs fs1 o q, only_target_created fs fs1 o -> q <> o -> fs_get fs1 q = fs_get fs q.
Proof. intros fs fs1 o q [->|[_ ->]] N; [reflexivity | apply get_set_other; congruence]. Qed.

Lemma only_target_files : forall fs fs1 o, only_target_created fs fs1 o ->
  forall q t, fs_get fs1 q = Some (File t) <-> fs_get fs q = Some (File t).
Proof.
  intros fs fs1 o [->|[X ->]] q t; [reflexivity|]. apply not_exists_get in X. destruct X as [_ X].
  destruct (path_eq_dec o q) as [<-|N].
  - rewrite get_set_same, X. split; discriminate.
  - now rewrite get_set_other.
Qed.

Lemma src_kept : forall fs fs1 od sp, only_target_created fs fs1 od ->
  negb (is_file fs sp) && negb (is_dir fs sp) = false ->
  is_file fs1 sp = is_file fs sp /\ is_dir fs1 sp = is_dir fs sp.
Proof.
  intros fs fs1 od sp [->|[X ->]] H; [now split|].
  assert (N : od <> sp).
  { intros ->. unfold exists_ in X. apply orb_false_iff in X. destruct X as [X1 X2]. now rewrite X1, X2 in H. }
  unfold is_file, is_dir. destruct sp; [now split|]. now rewrite get_set_other.
Qed.

Lemma file_dir_excl : forall fs p, is_file fs p = true -> is_dir fs p = false.
Proof.
  intros fs p H. unfold is_file, is_dir in *. destruct p; [discriminate|]. destruct (fs_get fs (s :: p)) as [[t|]|]; congruence.
Qed.

Lemma inputs_len : forall fs1 sp, negb (is_file fs1 sp) && negb (is_dir fs1 sp) = false ->
  List.length (inputs_of fs1 sp) = List.length (relative_files fs1 sp).
Proof.
  intros fs1 sp H. unfold inputs_of, relative_files. destruct (is_file fs1 sp) eqn:F.
  - now rewrite (file_dir_excl _ _ F).
  - apply negb_false_iff in H. rewrite H. now rewrite map_length.
Qed.

Lemma rels_nonempty : forall fs1 sp r, In r (relative_files fs1 sp) -> r <> [].
Proof.
  intros fs1 sp r H. unfold relative_files in H. destruct (is_file fs1 sp).
  - destruct H as [<-|[]]. discriminate.
  - rewrite glob_mamba_eq in H. apply (Permutation_in _ (sort_perm _)), pick_in in H. now destruct H as (_ & _ & N & _).
Qed.

Lemma out_paths_eq : forall fs1 sp od,
  out_paths fs1 sp od = map with_ext_path (map (fun r => od ++ r) (relative_files fs1 sp)).
Proof. intros. unfold out_paths. now rewrite map_map. Qed.

Lemma targets_combine : forall (pys : list string) fs1 sp od,
  List.length pys = List.length (relative_files fs1 sp) ->
  targets (combine pys (map (fun r => od ++ r) (relative_files fs1 sp))) = out_paths fs1 sp od.
Proof.
  intros pys fs1 sp od L. unfold targets. rewrite <- map_map, map_snd_combine; [now rewrite out_paths_eq|].
  now rewrite map_length.
Qed.

Lemma out_path_shape : forall fs1 sp od out, In out (out_paths fs1 sp od) ->
  out <> [] /\ strict_prefix od out.
Proof.
  intros fs1 sp od out H. unfold out_paths in H. apply in_map_iff in H. destruct H as (r & <- & I).
  apply rels_nonempty in I. assert (N : od ++ r <> []) by (intro F; apply app_eq_nil in F; tauto).
  split; [now apply with_ext_path_nonempty|].
  apply (prefix_strict _ (parent (with_ext_path (od ++ r)))); [|now apply parent_strict_prefix, with_ext_path_nonempty].
  rewrite with_ext_path_parent, parent_app by assumption. now exists (parent r).
Qed.

Lemma strict_prefix_irrefl : forall p, ~ strict_prefix p p.
Proof.
  intros p (c & t & H). apply (f_equal (@List.length _)) in H. rewrite app_length in H. cbn in H. lia.
Qed.

Section Dir.
  Variable W : world.
  Notation E := (err (w_msg W)).

  Theorem all_or_nothing : forall ord fs dir src target ann fs' es,
    tdir W ord fs dir src target ann = (fs', Err es) ->
    existsb is_write_err es = false ->
    only_target_created fs fs' (out_of dir target).
  Proof.
    intros ord fs dir src target ann fs' es H Hw. unfold tdir, transpile_dir in H.
    destruct (negb (is_file fs (src_of dir src)) && negb (is_dir fs (src_of dir src))).
    { injection H as <- _. now left. }
    destruct (prepare fs (out_of dir target)) as [fs1|] eqn:P.
    2:{ injection H as <- _. now left. }
    apply prepare_spec in P. destruct P as [P _].
    destruct (read_all fs1 _) as [sources|e].
    2:{ injection H as <- _. exact P. }
    fold (m2p W ord ann (combine sources (map Some (inputs_of fs1 (src_of dir src)))) (src_of dir src)) in H.
    destruct (m2p W ord ann _ _) as [pys|es'].
    2:{ injection H as <- _. exact P. }
    destruct (write_all fs1 _) as [fs2 [e|]] eqn:Wr; [|discriminate].
    injection H as <- <-. apply write_all_err in Wr. cbn in Hw. now rewrite Wr in Hw.
  Qed.

  Lemma read_all_len : forall fs ps (ts : list string), @read_all (w_msg W) fs ps = Ok ts -> List.length ts = List.length ps.
  Proof.
    intros fs. induction ps as [|p ps IH]; intros ts H; cbn [read_all] in H.
    - injection H as <-. reflexivity.
    - destruct (read_source fs p); [|discriminate]. destruct (read_all fs ps) as [ts'|]; [|discriminate].
      injection H as <-. cbn. f_equal. now apply IH.
  Qed.

  Theorem mirrored : forall ord fs dir src target ann fs' o,
    tdir W ord fs dir src target ann = (fs', Ok o) ->
    exists fs1 sources pys,
      let sp := src_of dir src in
      let ins := inputs_of fs1 sp in
      let outs := out_paths fs1 sp o in
      o = out_of dir target /\ negb (is_file fs sp) && negb (is_dir fs sp) = false /\
      prepare fs o = Some fs1 /\ only_target_created fs fs1 o /\
      @read_all (w_msg W) fs1 ins = Ok sources /\
      m2p W ord ann (combine sources (map Some ins)) sp = Ok pys /\
      List.length pys = List.length outs /\ List.length sources = List.length outs /\
      (NoDup outs -> forall py out, In (py, out) (combine pys outs) -> fs_get fs' out = Some (File (crlf py))) /\
      (forall out, In out outs -> exists t, fs_get fs' out = Some (File t)) /\
      (forall q, ~ In q outs ->
         fs_get fs' q = fs_get fs1 q \/
         (changed_to_dir fs1 fs' q /\ exists out, In out outs /\ strict_prefix q out)) /\
      keeps_dirs fs1 fs' /\
      (forall py out, In (py, out) (combine pys outs) -> dirs_exist fs' [] (parent out)) /\
      write_all fs1 (combine pys (map (fun r => o ++ r) (relative_files fs1 sp))) = (fs', @None E).
  Proof.
    intros ord fs dir src target ann fs' o H. unfold tdir, transpile_dir in H.
    destruct (negb (is_file fs (src_of dir src)) && negb (is_dir fs (src_of dir src))) eqn:H0; [discriminate|].
    destruct (prepare fs (out_of dir target)) as [fs1|] eqn:P; [|discriminate].
    destruct (read_all fs1 _) as [sources|e] eqn:R; [|discriminate].
    fold (m2p W ord ann (combine sources (map Some (inputs_of fs1 (src_of dir src)))) (src_of dir src)) in H.
    destruct (m2p W ord ann _ _) as [pys|es'] eqn:M; [|discriminate].
    destruct (write_all fs1 _) as [fs2 [e|]] eqn:Wr; [discriminate|]. injection H as <- <-.
    exists fs1, sources, pys. cbv zeta.
    (* The first six conjuncts are the steps just taken.  The lengths: reading, the pipeline and the
       extension each keep the number of files.  The rest is [write_all_spec], whose targets are [out_paths]. *)
    destruct (prepare_spec _ _ _ P) as [OT _].
    set (sp := src_of dir src) in *. set (od := out_of dir target) in *.
    assert (HS : negb (is_file fs1 sp) && negb (is_dir fs1 sp) = false) by (destruct (src_kept _ _ _ _ OT H0) as [-> ->]; exact H0).
    assert (L1 : List.length sources = List.length (inputs_of fs1 sp)) by (apply (read_all_len fs1); exact R).
    assert (L2 : List.length (inputs_of fs1 sp) = List.length (relative_files fs1 sp)) by now apply inputs_len.
    assert (L3 : List.length pys = List.length sources).
    { apply m2p_ok_iff in M. destruct M as (ctx & _ & F). apply Forall2_len in F. unfold input in F. rewrite combine_length, map_length in F. lia. }
    assert (L4 : List.length (out_paths fs1 sp od) = List.length (relative_files fs1 sp)) by (unfold out_paths; now rewrite map_length).
    assert (T := targets_combine pys fs1 sp od ltac:(now rewrite L3, L1, L2)).
    destruct (write_all_spec _ _ _ _ Wr) as (Kp & Ot & Fl & Ct & Dr). rewrite T in Ot, Fl, Ct.
    repeat split; try assumption.
    - now rewrite L3, L1, L2, L4.
    - now rewrite L1, L2, L4.
    - intros ND py out I. rewrite out_paths_eq, combine_map_r in I. apply in_map_iff in I.
      destruct I as ([py0 out0] & [= <- <-] & I). now apply Ct.
    - intros py out I. rewrite out_paths_eq, combine_map_r in I. apply in_map_iff in I.
      destruct I as ([py0 out0] & [= <- <-] & I). now apply (Dr py0).
  Qed.

  Lemma read_all_agree : forall ps fs fs', (forall p, In p ps -> fs_get fs' p = fs_get fs p) ->
    @read_all (w_msg W) fs' ps = read_all fs ps.
  Proof.
    induction ps as [|p ps IH]; intros fs fs' H; [reflexivity|]. cbn [read_all].
    assert (Hp : @read_source (w_msg W) fs' p = read_source fs p).
    { unfold read_source. destruct p; [reflexivity|]. now rewrite (H _ (or_introl eq_refl)). }
    rewrite Hp, (IH fs fs'); [reflexivity|]. intros q I. apply H. now right.
  Qed.

  Lemma inputs_frame : forall fs fs' sp,
    flat_map (glob_pick sp) fs' = flat_map (glob_pick sp) fs ->
    (forall q, is_prefix sp q -> fs_get fs' q = fs_get fs q) ->
    is_file fs' sp = is_file fs sp /\ is_dir fs' sp = is_dir fs sp /\
    relative_files fs' sp = relative_files fs sp /\ inputs_of fs' sp = inputs_of fs sp /\
    @read_all (w_msg W) fs' (inputs_of fs sp) = read_all fs (inputs_of fs sp).
  Proof.
    intros fs fs' sp F2 F1.
    assert (F3 : is_file fs' sp = is_file fs sp /\ is_dir fs' sp = is_dir fs sp).
    { unfold is_file, is_dir. destruct sp as [|c sp0]; [now split|]. rewrite (F1 _ (is_prefix_refl _)). now split. }
    destruct F3 as [F3a F3b].
    assert (F4 : relative_files fs' sp = relative_files fs sp).
    { unfold relative_files. rewrite F3a. destruct (is_file fs sp); [reflexivity|]. now rewrite !glob_mamba_eq, F2. }
    repeat split; try assumption; [unfold inputs_of; now rewrite F3b, F4|].
    apply read_all_agree. intros p I. apply F1. unfold inputs_of in I.
    destruct (is_dir fs sp); [|destruct I as [<-|[]]; apply is_prefix_refl].
    apply in_map_iff in I. destruct I as (r & <- & _). now exists r.
  Qed.

  Theorem rerun_idempotent : forall ord fs dir src target ann fs' o,
    ~ is_prefix (src_of dir src) (out_of dir target) ->
    ~ is_prefix (out_of dir target) (src_of dir src) ->
    (forall fs1, prepare fs (out_of dir target) = Some fs1 ->
                 NoDup (out_paths fs1 (src_of dir src) (out_of dir target))) ->
    tdir W ord fs dir src target ann = (fs', Ok o) ->
    tdir W ord fs' dir src target ann = (fs', Ok o).
  Proof.
    intros ord fs dir src target ann fs' o N1 N2 ND H.
    destruct (mirrored _ _ _ _ _ _ _ _ H) as (fs1 & sources & pys & Ho & H0 & P & OT & R & M & L1 & _ & _ & _ & Hother & _ & _ & Wr).
    subst o. set (sp := src_of dir src) in *. set (od := out_of dir target) in *.
    specialize (ND _ P).
    (* Frame: the first run changed nothing at or below the source, so the second reads the same texts and
       the pipeline gives the same Python; the target directory exists, and every write finds its
       directories and the very text it would write.
       No path at or below the source directory is an output path or an ancestor of one: *)
    assert (Sep : forall q out, In out (out_paths fs1 sp od) -> is_prefix q out -> ~ is_prefix sp q).
    { intros q out Io Pq Ps. apply out_path_shape in Io. destruct Io as [_ Po]. apply strict_is_prefix in Po.
      destruct (prefixes_comparable _ _ _ Pq Po) as [X|X].
      - apply N1. now apply (is_prefix_trans _ q).
      - destruct (prefixes_comparable _ _ _ Ps X); contradiction. }
    assert (F1 : forall q, is_prefix sp q -> fs_get fs' q = fs_get fs1 q).
    { intros q Ps. destruct (in_dec path_eq_dec q (out_paths fs1 sp od)) as [I|I].
      - exfalso. apply (Sep q q I (is_prefix_refl q) Ps).
      - destruct (Hother q I) as [X|[_ (out & Io & Po)]]; [assumption|]. exfalso.
        apply (Sep q out Io (strict_is_prefix _ _ Po) Ps). }
    assert (T := targets_combine pys fs1 sp od ltac:(unfold out_paths in L1; now rewrite map_length in L1)).
    assert (F2 : flat_map (glob_pick sp) fs' = flat_map (glob_pick sp) fs1).
    { apply (write_all_pick _ _ _ _ _ Wr). rewrite T. intros out q Io Pq. apply under_none_of. now apply (Sep _ out). }
    destruct (inputs_frame fs1 fs' sp F2 F1) as (F3a & F3b & F4 & F5 & F6). destruct (src_kept _ _ _ _ OT H0) as [K1 K2].
    assert (F7 : prepare fs' od = Some fs').
    { unfold prepare. destruct (prepare_spec _ _ _ P) as [_ X]. assert (X' : exists_ fs' od = true); [|now rewrite X'].
      unfold exists_, is_dir, is_file in *. destruct od as [|c od0] eqn:Eod; [reflexivity|].
      assert (I : ~ In (c :: od0) (out_paths fs1 sp (c :: od0))).
      { intro I. apply out_path_shape in I. destruct I as [_ I]. now apply strict_prefix_irrefl in I. }
      destruct (Hother _ I) as [Y|[[_ Y] _]]; rewrite Y; [exact X | reflexivity]. }
    assert (F8 : @write_all (w_msg W) fs' (combine pys (map (fun r => od ++ r) (relative_files fs1 sp))) = (fs', None)).
    { destruct (write_all_spec _ _ _ _ Wr) as (_ & _ & _ & Ct & Dr). rewrite T in Ct.
      apply write_all_noop. intros py out0 I. split; [|split; [now apply (Dr py) | now apply Ct]].
      apply (out_path_shape fs1 sp od). rewrite <- T. exact (in_map (fun e => with_ext_path (snd e)) _ _ I). }
    unfold tdir, transpile_dir. fold sp. fold od. rewrite F3a, F3b, K1, K2, H0, F7, F4, F5, F6, R.
    unfold m2p in M. rewrite M, F8. reflexivity.
  Qed.
End Dir.

Definition ord_ok (ord : enumeration) : Prop := forall (A : Type) (l : list A), Permutation (ord A l) l.
Definition uniq_on {A : Type} (lkey : A -> string) (L : list A) : Prop :=
  forall x y, In x L -> In y L -> lkey x = lkey y -> x = y.

Section Sets.
  Variable A : Type.
  Variable key : A -> string.

  (** [l] is a choice of representatives of [L]: elements of [L], one or more for every key of [L] *)
  Definition covers (l L : list A) : Prop :=
    incl l L /\ forall y, In y L -> exists x, In x l /\ key x = key y.

  Lemma covers_refl : forall l, covers l l.
  Proof. intro l. split; [apply incl_refl | intros y H; now exists y]. Qed.

  Lemma covers_insert : forall s S y, covers s S -> covers (set_insert key y s) (S ++ [y]).
  Proof.
    intros s S y [I C]. unfold set_insert. destruct (existsb _ s) eqn:X.
    - split; [now apply incl_appl|]. intros z H. apply in_app_or in H. destruct H as [H|[<-|[]]]; [now apply C|].
      apply existsb_exists in X. destruct X as (x & Ix & Kx). apply String.eqb_eq in Kx. now exists x.
    - split; [apply incl_app_app; [exact I | apply incl_refl]|]. intros z H. apply in_app_or in H.
      destruct H as [H|[<-|[]]].
      + destruct (C z H) as (x & Ix & Kx). exists x. split; [apply in_or_app; now left | exact Kx].
      + exists y. split; [apply in_or_app; right; now left | reflexivity].
  Qed.

  Lemma covers_union : forall o s S, covers s S -> covers (set_union key s o) (S ++ o).
  Proof.
    induction o as [|y o IH]; intros s S H; cbn [set_union fold_left]; [now rewrite app_nil_r|].
    change (S ++ y :: o) with (S ++ [y] ++ o). rewrite app_assoc. now apply IH, covers_insert.
  Qed.

  Lemma covers_app_r : forall l P o O, covers l (P ++ o) -> covers o O -> covers l (P ++ O).
  Proof.
    intros l P o O [I C] [I' C']. split.
    - intros x H. apply I, in_app_or in H. apply in_or_app. destruct H; [now left | right; now apply I'].
    - intros z H. apply in_app_or in H. destruct H as [H|H]; [apply C, in_or_app; now left|].
      destruct (C' z H) as (y & Iy & Ky). destruct (C y) as (x & Ix & Kx); [apply in_or_app; now right|].
      exists x. split; [exact Ix | congruence].
  Qed.

  (** a union with what is already covered changes nothing: [into_with_std_lib] after
      [into_with_primitives], which has already added the std stubs *)
  Lemma covers_absorb : forall s S o, covers s S -> incl o S -> covers (set_union key s o) S.
  Proof.
    intros s S o H Io. destruct (covers_union o s S H) as [I C]. split.
    - intros x Hx. apply I, in_app_or in Hx. destruct Hx; [assumption | now apply Io].
    - intros y Hy. apply C, in_or_app. now left.
  Qed.

  Lemma covers_ord : forall (ord : enumeration) l L, ord_ok ord -> covers l L -> covers (ord A l) L.
  Proof.
    intros ord l L O [I C]. split.
    - intros x H. apply I. apply (Permutation_in _ (O A l) H).
    - intros y H. destruct (C y H) as (x & Ix & Kx). exists x. split; [|assumption].
      apply (Permutation_in _ (Permutation_sym (O A l)) Ix).
  Qed.

  Variable lkey : A -> string.
  Hypothesis key_lkey : forall x y, key x = key y -> lkey x = lkey y.

  Lemma find_covered : forall l L x, covers l L -> In x L ->
    exists x', find (fun z => String.eqb (lkey z) (lkey x)) l = Some x' /\ lkey x' = lkey x /\
               (uniq_on lkey L -> x' = x).
  Proof.
    intros l L x [I C] Hx. destruct (C x Hx) as (y & Iy & Ky).
    destruct (find (fun z => String.eqb (lkey z) (lkey x)) l) as [x'|] eqn:F.
    - apply find_some in F. destruct F as [Ix' Kx']. apply String.eqb_eq in Kx'.
      exists x'. split; [reflexivity|]. split; [assumption|]. intro U. apply U; auto.
    - apply (find_none _ _ F) in Iy. apply String.eqb_neq in Iy. destruct Iy. now apply key_lkey.
  Qed.

  Lemma find_agree : forall l l' L L' k,
    covers l L -> covers l' L' -> incl L L' -> uniq_on lkey L' ->
    (forall y, In y L' -> lkey y = k -> In y L) ->
    find (fun x => String.eqb (lkey x) k) l = find (fun x => String.eqb (lkey x) k) l'.
  Proof.
    intros l l' L L' k Cl Cl' IL U Hk.
    destruct (find _ l) as [x|] eqn:F.
    - apply find_some in F. destruct F as [Ix Kx]. apply String.eqb_eq in Kx. subst k.
      destruct (find_covered l' L' x Cl') as (x' & -> & _ & E); [apply IL; now apply Cl|].
      now rewrite (E U).
    - destruct (find _ l') as [z|] eqn:F'; [|reflexivity].
      apply find_some in F'. destruct F' as [Iz Kz]. apply String.eqb_eq in Kz. subst k.
      destruct (find_covered l L z Cl) as (x & F'' & _); [apply Hk; [now apply Cl'|reflexivity]|].
      congruence.
  Qed.
End Sets.

Section Ctx.
  Variable W : world.
  Notation DECLS := (decls (w_centry W) (w_dentry W) (w_fentry W)).

  Definition all_c (asts : list (w_ast W)) : list (w_centry W) :=
    flat_map (fun a => match w_decls_of W a with Ok d => d_classes d | Err _ => [] end) asts.
  Definition all_d (asts : list (w_ast W)) : list (w_dentry W) :=
    flat_map (fun a => match w_decls_of W a with Ok d => d_fields d | Err _ => [] end) asts.
  Definition all_f (asts : list (w_ast W)) : list (w_fentry W) :=
    flat_map (fun a => match w_decls_of W a with Ok d => d_funs d | Err _ => [] end) asts.

  Definition universe_c asts := w_any W :: all_c asts ++ w_prim_c W ++ w_std_c W.
  Definition universe_d asts := all_d asts ++ w_prim_d W ++ w_std_d W.
  Definition universe_f asts := all_f asts ++ w_prim_f W ++ w_std_f W.

  Notation collectW := (collect (w_c_key W) (w_f_key W) (w_d_name W) (w_decls_of W)).

  Lemma collect_spec : forall asts acc d C D F,
    collectW asts acc = Ok d ->
    covers _ (w_c_key W) (d_classes acc) C -> covers _ (w_d_name W) (d_fields acc) D ->
    covers _ (w_f_key W) (d_funs acc) F ->
    covers _ (w_c_key W) (d_classes d) (C ++ all_c asts) /\
    covers _ (w_d_name W) (d_fields d) (D ++ all_d asts) /\
    covers _ (w_f_key W) (d_funs d) (F ++ all_f asts).
  Proof.
    induction asts as [|a asts IH]; intros acc d C D F H Hc Hd Hf; cbn [collect] in H.
    - injection H as <-. unfold all_c, all_d, all_f. cbn [flat_map]. now rewrite !app_nil_r.
    - unfold all_c, all_d, all_f. cbn [flat_map]. destruct (w_decls_of W a) as [da|ms] eqn:Da; [|discriminate].
      rewrite !app_assoc. apply (IH _ _ _ _ _ H); unfold merge; cbn; now apply covers_union.
  Qed.

  Lemma covers_u3 : forall (A : Type) (key : A -> string) s S p q, covers A key s S ->
    covers A key (set_union key (set_union key (set_union key s p) q) q) (S ++ p ++ q).
  Proof.
    intros A key s S p q H. rewrite app_assoc. apply covers_absorb; [|apply incl_appr, incl_refl].
    now apply covers_union, covers_union.
  Qed.

  Lemma ctx_covers : forall asts ctx, w_build_ctx W asts = Ok ctx ->
    covers _ (w_c_key W) (classes ctx) (universe_c asts) /\
    covers _ (w_d_name W) (fields ctx) (universe_d asts) /\
    covers _ (w_f_key W) (functions ctx) (universe_f asts).
  Proof.
    intros asts ctx H. unfold w_build_ctx, build_ctx in H.
    destruct (collectW asts no_decls) as [d|ms] eqn:Cl; [|discriminate]. injection H as <-. cbn [classes fields functions].
    destruct (collect_spec _ _ _ [] [] [] Cl (covers_refl _ _ _) (covers_refl _ _ _) (covers_refl _ _ _)) as (Hc & Hd & Hf).
    cbn [app] in *. split; [|split]; [|now apply covers_u3..].
    apply (covers_u3 _ _ _ (w_any W :: all_c asts)). apply (covers_app_r _ _ _ [w_any W] (d_classes d)); [apply covers_union, covers_refl | exact Hc].
  Qed.

  Lemma all_in : forall (B : Type) (g : DECLS -> list B) asts a d x,
    In a asts -> w_decls_of W a = Ok d -> In x (g d) ->
    In x (flat_map (fun a => match w_decls_of W a with Ok d => g d | Err _ => [] end) asts).
  Proof. intros B g asts a d x Ia D Hx. apply in_flat_map. exists a. split; [assumption | now rewrite D]. Qed.

  Lemma all_incl : forall (B : Type) (g : DECLS -> list B) asts asts',
    incl asts asts' ->
    incl (flat_map (fun a => match w_decls_of W a with Ok d => g d | Err _ => [] end) asts)
         (flat_map (fun a => match w_decls_of W a with Ok d => g d | Err _ => [] end) asts').
  Proof.
    intros B g asts asts' H x Hx. apply in_flat_map in Hx. destruct Hx as (a & Ia & Hx).
    apply in_flat_map. exists a. split; [now apply H | assumption].
  Qed.

  Lemma universe_incl : forall asts asts', incl asts asts' ->
    incl (universe_c asts) (universe_c asts') /\ incl (universe_f asts) (universe_f asts') /\
    incl (universe_d asts) (universe_d asts').
  Proof.
    intros asts asts' H. unfold universe_c, universe_f, universe_d, all_c, all_f, all_d.
    repeat split; [apply incl_cons; [now left | apply incl_tl]|..];
      (apply incl_app; [apply incl_appl, all_incl, H | apply incl_appr, incl_refl]).
  Qed.

  (** A universe is [pre ++ (declarations of all files) ++ post]; a file that declares nothing named [k]
      adds nothing named [k]. *)
  Lemma universe_without_file : forall (B : Type) (g : DECLS -> list B) (nm : B -> string) pre post A1 A2 a d k y,
    w_decls_of W a = Ok d -> ~ In k (map nm (g d)) -> nm y = k ->
    In y (pre ++ flat_map (fun a => match w_decls_of W a with Ok d => g d | Err _ => [] end) (A1 ++ a :: A2) ++ post) ->
    In y (pre ++ flat_map (fun a => match w_decls_of W a with Ok d => g d | Err _ => [] end) (A1 ++ A2) ++ post).
  Proof.
    intros B g nm pre post A1 A2 a d k y D N K H. rewrite flat_map_app in *. cbn [flat_map] in H. rewrite D in H.
    rewrite !in_app_iff in *. destruct H as [H|[[H|[H|H]]|H]]; auto.
    destruct N. subst k. now apply in_map.
  Qed.
End Ctx.

Section Order.
  Variable W : world.
  Notation LK := (lookups (w_centry W) (w_dentry W) (w_fentry W)).

  (** true of the Rust types: a [StringName] contains its base name; the [Eq]/[Hash] identity of a
      [GenericFunction] contains its name *)
  Definition key_compat : Prop :=
    (forall x y, w_c_key W x = w_c_key W y -> w_c_base W x = w_c_base W y) /\
    (forall x y, w_f_key W x = w_f_key W y -> w_f_name W x = w_f_name W y).

  Definition uniq_names (asts : list (w_ast W)) : Prop :=
    uniq_on (w_c_base W) (universe_c W asts) /\
    uniq_on (w_f_name W) (universe_f W asts) /\
    uniq_on (w_d_name W) (universe_d W asts).

  Definition lk_eq_on (K : string -> Prop) (lk lk' : LK) : Prop :=
    forall k, K k ->
      lk_class lk k = lk_class lk' k /\ lk_ctor lk k = lk_ctor lk' k /\
      lk_fun lk k = lk_fun lk' k /\ lk_field lk k = lk_field lk' k.

  Definition no_new_at (asts asts' : list (w_ast W)) (k : string) : Prop :=
    (forall y, In y (universe_c W asts') -> w_c_base W y = k -> In y (universe_c W asts)) /\
    (forall y, In y (universe_c W asts') -> w_c_key W y = k -> In y (universe_c W asts)) /\
    (forall y, In y (universe_f W asts') -> w_f_name W y = k -> In y (universe_f W asts)) /\
    (forall y, In y (universe_d W asts') -> w_d_name W y = k -> In y (universe_d W asts)).

  Lemma uniq_names_incl : forall asts asts', incl asts' asts -> uniq_names asts -> uniq_names asts'.
  Proof.
    intros asts asts' H (Uc & Uf & Ud). destruct (universe_incl W _ _ H) as (Jc & Jf & Jd).
    split; [|split]; intros x y Hx Hy; [apply Uc | apply Uf | apply Ud]; auto.
  Qed.

  Theorem lookups_agree : forall ord ord' asts asts' ctx ctx' (K : string -> Prop),
    key_compat -> ord_ok ord -> ord_ok ord' -> incl asts asts' ->
    w_build_ctx W asts = Ok ctx -> w_build_ctx W asts' = Ok ctx' ->
    uniq_names asts' -> (forall k, K k -> no_new_at asts asts' k) ->
    lk_eq_on K (w_lookups W ord ctx) (w_lookups W ord' ctx').
  Proof.
    intros ord ord' asts asts' ctx ctx' K [Kc Kf] O O' I B B' (Uc & Uf & Ud) Hn k Hk.
    destruct (ctx_covers _ _ _ B) as (Cc & Cd & Cf). destruct (ctx_covers _ _ _ B') as (Cc' & Cd' & Cf').
    destruct (universe_incl W _ _ I) as (Ic & If & Id). destruct (Hn k Hk) as (N1 & N2 & N3 & N4).
    unfold w_lookups, lookups_of. cbn [lk_class lk_ctor lk_fun lk_field].
    split; [|split; [|split]].
    - apply (find_agree _ (w_c_key W) (w_c_base W) Kc _ _ (universe_c W asts) (universe_c W asts'));
        auto using covers_ord.
    - apply (find_agree _ (w_c_key W) (w_c_key W) (fun x y E => E) _ _ (universe_c W asts) (universe_c W asts'));
        auto using covers_ord.
      (* constructors are found by the set key: two classes with one key have one base name, so are one class *)
      intros x y Hx Hy E. apply Uc; [exact Hx | exact Hy | exact (Kc x y E)].
    - apply (find_agree _ (w_f_key W) (w_f_name W) Kf _ _ (universe_f W asts) (universe_f W asts'));
        auto using covers_ord.
    - apply (find_agree _ (w_d_name W) (w_d_name W) (fun x y E => E) _ _ (universe_d W asts) (universe_d W asts'));
        auto using covers_ord.
  Qed.

  (** Hypotheses about the stages: validated by testing, true of the Rust code by reading (the context is
      only read through the four look-ups). *)
  Definition stages_extensional : Prop :=
    forall lk lk', lk_eq_on (fun _ => True) lk lk' ->
      (forall a, w_check W lk a = w_check W lk' a) /\ (forall ann t, w_gen W ann lk t = w_gen W ann lk' t).

  (** [refs a]: the names the stages may look up while processing file [a] *)
  Definition stages_local (refs : w_ast W -> list string) : Prop :=
    forall lk lk' a, lk_eq_on (fun k => In k (refs a)) lk lk' ->
      w_check W lk a = w_check W lk' a /\
      (forall ann t, w_check W lk a = Ok t -> w_gen W ann lk t = w_gen W ann lk' t).

  Lemma file_out_ext : forall ann lk lk' s, stages_extensional -> lk_eq_on (fun _ => True) lk lk' ->
    file_out W ann lk s = file_out W ann lk' s.
  Proof.
    intros ann lk lk' s X E. destruct (X _ _ E) as [Xc Xg]. unfold file_out.
    destruct (w_parse W s); [|reflexivity]. rewrite <- Xc. destruct (w_check W lk a); [|reflexivity]. now rewrite <- Xg.
  Qed.

  Lemma asts_of_in : forall source a, In a (asts_of W source) <-> exists s p, In (s, p) source /\ w_parse W s = Ok a.
  Proof.
    intros source a. unfold asts_of. rewrite in_flat_map. split.
    - intros ([s p] & I & H). cbn [fst] in H. destruct (w_parse W s) eqn:P; [|destruct H]. destruct H as [<-|[]]. now exists s, p.
    - intros (s & p & I & P). exists (s, p). split; [assumption|]. cbn [fst]. rewrite P. now left.
  Qed.

  Lemma asts_of_incl : forall source source', incl source source' -> incl (asts_of W source) (asts_of W source').
  Proof.
    intros source source' H a Ha. apply asts_of_in in Ha. destruct Ha as (s & p & I & P). apply asts_of_in. exists s, p. split; [now apply H | assumption].
  Qed.

  Definition out_fun (ann : bool) (lk : LK) (sp : input) : string :=
    match file_out W ann lk (fst sp) with Some py => py | None => "" end.

  Lemma file_outs_map : forall ann lk source pys,
    Forall2 (fun (sp : input) py => file_out W ann lk (fst sp) = Some py) source pys <->
    pys = map (out_fun ann lk) source /\ forall sp, In sp source -> file_out W ann lk (fst sp) <> None.
  Proof.
    intros ann lk. induction source as [|sp source IH]; intros pys; split.
    - intros H. inversion H. split; [reflexivity | intros sp []].
    - intros [-> _]. constructor.
    - intros H. inversion H as [|? py ? pys' H1 H2]; subst. apply IH in H2. destruct H2 as [-> H2].
      split; [cbn [map]; f_equal; unfold out_fun; now rewrite H1 | intros x [<-|I]; [congruence | now apply H2]].
    - intros [-> H]. cbn [map]. constructor.
      + unfold out_fun. destruct (file_out W ann lk (fst sp)) eqn:F; [reflexivity | now destruct (H sp (or_introl eq_refl))].
      + apply IH. split; [reflexivity | intros x I; apply H; now right].
  Qed.

  Theorem order_independent : forall ord ord' ann source source' dir dir' pys,
    key_compat -> ord_ok ord -> ord_ok ord' -> stages_extensional ->
    Permutation source source' -> uniq_names (asts_of W source) ->
    m2p W ord ann source dir = Ok pys ->
    exists (f : input -> string) pys',
      m2p W ord' ann source' dir' = Ok pys' /\ pys = map f source /\ pys' = map f source'.
  Proof.
    intros ord ord' ann source source' dir dir' pys Kc O O' X P U H.
    apply m2p_ok_iff in H. destruct H as (ctx & B & F).
    assert (I1 : incl source source') by (intros x Hx; now apply (Permutation_in _ P)).
    assert (I2 : incl source' source) by (intros x Hx; now apply (Permutation_in _ (Permutation_sym P))).
    assert (A1 := asts_of_incl _ _ I1). assert (A2 := asts_of_incl _ _ I2).
    destruct (proj2 (build_ctx_ok_iff W (asts_of W source'))) as [ctx' B'].
    { intros a Ia. apply (proj1 (build_ctx_ok_iff W (asts_of W source))); [now exists ctx | now apply A2]. }
    assert (E : lk_eq_on (fun _ => True) (w_lookups W ord ctx) (w_lookups W ord' ctx')).
    { apply (lookups_agree ord ord' (asts_of W source) (asts_of W source')); try assumption; [now apply (uniq_names_incl (asts_of W source))|].
      intros k _. destruct (universe_incl W _ _ A2) as (Jc & Jf & Jd). repeat split; intros y Hy _; auto. }
    apply file_outs_map in F. destruct F as [-> F].
    exists (out_fun ann (w_lookups W ord ctx)), (map (out_fun ann (w_lookups W ord ctx)) source').
    split; [|split; reflexivity]. apply m2p_ok_iff. exists ctx'. split; [assumption|].
    assert (G : Forall2 (fun (sp : input) py => file_out W ann (w_lookups W ord ctx) (fst sp) = Some py) source'
                        (map (out_fun ann (w_lookups W ord ctx)) source')).
    { apply file_outs_map. split; [reflexivity | intros sp I; apply F; now apply I2]. }
    apply (forall2_impl_in _ _ _ _ _ _ G). intros sp py _ Hs. now rewrite <- (file_out_ext ann _ _ (fst sp) X E).
  Qed.
End Order.

Section Fresh.
  Variable W : world.
  Notation DECLS := (decls (w_centry W) (w_dentry W) (w_fentry W)).

  (** every name under which a declaration of the file can be found *)
  Definition declared_names (d : DECLS) : list string :=
    map (w_c_base W) (d_classes d) ++ map (w_c_key W) (d_classes d) ++
    map (w_f_name W) (d_funs d) ++ map (w_d_name W) (d_fields d).

  Lemma asts_of_app : forall a b, asts_of W (a ++ b) = asts_of W a ++ asts_of W b.
  Proof. intros. unfold asts_of. apply flat_map_app. Qed.

  Lemma asts_of_insert : forall l1 l2 s p a, w_parse W s = Ok a ->
    asts_of W (l1 ++ (s, p) :: l2) = asts_of W l1 ++ a :: asts_of W l2.
  Proof.
    intros l1 l2 s p a P. rewrite asts_of_app. f_equal. unfold asts_of. cbn [flat_map fst]. now rewrite P.
  Qed.

  Theorem fresh_file_inert : forall ord ord' ann refs l1 l2 new_s new_p new_a new_d ctx ctx',
    key_compat W -> ord_ok ord -> ord_ok ord' -> stages_local W refs ->
    w_parse W new_s = Ok new_a -> w_decls_of W new_a = Ok new_d ->
    uniq_names W (asts_of W (l1 ++ (new_s, new_p) :: l2)) ->
    w_build_ctx W (asts_of W (l1 ++ l2)) = Ok ctx ->
    w_build_ctx W (asts_of W (l1 ++ (new_s, new_p) :: l2)) = Ok ctx' ->
    (forall s p a, In (s, p) (l1 ++ l2) -> w_parse W s = Ok a ->
                   forall k, In k (refs a) -> ~ In k (declared_names new_d)) ->
    forall s p, In (s, p) (l1 ++ l2) ->
      file_out W ann (w_lookups W ord' ctx') s = file_out W ann (w_lookups W ord ctx) s.
  Proof.
    intros ord ord' ann refs l1 l2 new_s new_p new_a new_d ctx ctx' Kc O O' L P D U B B' Fr s p I.
    unfold file_out. destruct (w_parse W s) as [a|m] eqn:Pa; [|reflexivity].
    assert (E : lk_eq_on W (fun k => In k (refs a)) (w_lookups W ord ctx) (w_lookups W ord' ctx')).
    { apply (lookups_agree W ord ord' (asts_of W (l1 ++ l2)) (asts_of W (l1 ++ (new_s, new_p) :: l2))); try assumption.
      - apply asts_of_incl. intros x Hx. apply in_app_or in Hx. apply in_or_app. destruct Hx; [now left | right; now right].
      - intros k Hk. specialize (Fr s p a I Pa k Hk). unfold declared_names in Fr. rewrite !in_app_iff in Fr.
        rewrite (asts_of_insert _ _ _ _ _ P), asts_of_app.
        repeat split; intros y Hy Ky.
        + apply (universe_without_file W _ d_classes (w_c_base W) [w_any W] _ _ _ _ _ k y D); try assumption. tauto.
        + apply (universe_without_file W _ d_classes (w_c_key W) [w_any W] _ _ _ _ _ k y D); try assumption. tauto.
        + apply (universe_without_file W _ d_funs (w_f_name W) [] _ _ _ _ _ k y D); try assumption. tauto.
        + apply (universe_without_file W _ d_fields (w_d_name W) [] _ _ _ _ _ k y D); try assumption. tauto. }
    destruct (L _ _ a E) as [Lc Lg]. rewrite <- Lc. destruct (w_check W (w_lookups W ord ctx) a) as [t|ms] eqn:C; [|reflexivity].
    now rewrite <- (Lg ann t eq_refl).
  Qed.

  Theorem cross_file_visible : forall ord source ctx s p a d,
    key_compat W -> ord_ok ord -> w_build_ctx W (asts_of W source) = Ok ctx ->
    In (s, p) source -> w_parse W s = Ok a -> w_decls_of W a = Ok d ->
    (forall c, In c (d_classes d) ->
       exists c', lk_class (w_lookups W ord ctx) (w_c_base W c) = Some c' /\ w_c_base W c' = w_c_base W c /\
                  (uniq_names W (asts_of W source) -> c' = c)) /\
    (forall f, In f (d_funs d) ->
       exists f', lk_fun (w_lookups W ord ctx) (w_f_name W f) = Some f' /\ w_f_name W f' = w_f_name W f /\
                  (uniq_names W (asts_of W source) -> f' = f)) /\
    (forall x, In x (d_fields d) ->
       exists x', lk_field (w_lookups W ord ctx) (w_d_name W x) = Some x' /\ w_d_name W x' = w_d_name W x /\
                  (uniq_names W (asts_of W source) -> x' = x)).
  Proof.
    intros ord source ctx s p a d [Kc Kf] O B I P D.
    destruct (ctx_covers W _ _ B) as (Cc & Cd & Cf).
    assert (Ia : In a (asts_of W source)) by (apply asts_of_in; now exists s, p).
    unfold w_lookups, lookups_of. cbn [lk_class lk_fun lk_field]. split; [|split].
    - intros c Hc.
      destruct (find_covered _ (w_c_key W) (w_c_base W) Kc _ _ c (covers_ord _ _ ord _ _ O Cc)) as (c' & F & K & U).
      { right. apply in_or_app. left. exact (all_in W _ d_classes _ _ _ _ Ia D Hc). }
      exists c'. split; [exact F|]. split; [exact K|]. intros (Uc & _ & _). now apply U.
    - intros f Hf.
      destruct (find_covered _ (w_f_key W) (w_f_name W) Kf _ _ f (covers_ord _ _ ord _ _ O Cf)) as (f' & F & K & U).
      { apply in_or_app. left. exact (all_in W _ d_funs _ _ _ _ Ia D Hf). }
      exists f'. split; [exact F|]. split; [exact K|]. intros (_ & Uf & _). now apply U.
    - intros x Hx.
      destruct (find_covered _ (w_d_name W) (w_d_name W) (fun x y E => E) _ _ x (covers_ord _ _ ord _ _ O Cd)) as (x' & F & K & U).
      { apply in_or_app. left. exact (all_in W _ d_fields _ _ _ _ Ia D Hx). }
      exists x'. split; [exact F|]. split; [exact K|]. intros (_ & _ & Ud). now apply U.
  Qed.
End Fresh.

