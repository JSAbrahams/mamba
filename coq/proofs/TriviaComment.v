(** * A comment-only line directly after a token line, indented like it (used by C14)

    [pre] ends on a line that holds a token and whose indentation is [k] blanks
    ([last_indent pre = Some (1 + k)]); the line [k blanks # text] is inserted after it.  The
    Comment token goes through [State::token]: it hands out the pending NL of the line, adds no
    Indent/Dedent (same indentation), and the line break after it leaves a new pending NL.
    So the token list gains exactly [NL; Comment] and every later token moves down one line. *)
From Coq Require Import List Ascii ZArith Bool Lia Arith.
From MambaModel Require Import model.LexTok gen.LexTables model.Lex proofs.LexProps model.Trivia
  proofs.TriviaFuel proofs.TriviaScan proofs.TriviaSim proofs.TriviaShift proofs.TriviaProps
  proofs.TriviaBlank.
Import ListNotations.
Local Open Scope Z_scope.

Definition last_indent (pre : str) : option Z :=
  match prefix_run pre with inl (inl (st, _)) => Some (cur_indent st) | _ => None end.

Lemma spaces_indent n st :
  token_this_line st = false ->
  line_indent (Nat.iter n state_space st) = line_indent st + Z.of_nat n
  /\ token_this_line (Nat.iter n state_space st) = false.
Proof.
  intros Hf. induction n as [|n [IH1 IH2]]; [cbn; split; [lia | exact Hf]|].
  change (Nat.iter (S n) state_space st) with (state_space (Nat.iter n state_space st)).
  set (s1 := Nat.iter n state_space st) in *. unfold state_space. cbn [line_indent token_this_line].
  rewrite IH2, IH1. split; [lia | reflexivity].
Qed.

Definition comment_line_rel (text : str) (l1 l2 : list tl) : Prop :=
  exists u v x cm v',
    l1 = u ++ v /\ l2 = u ++ x :: tl0 cm :: v'
    /\ ltok (top x) = MNL /\ inner x = [] /\ ltok cm = MComment text /\ lnested cm = false
    /\ Forall2 (tl_sh 1) v v'.

Theorem comment_after_token pre R k text :
  ends_on_token_line pre = true -> last_indent pre = Some (1 + Z.of_nat k) ->
  complete true pre = true -> no_eol text = true -> hd_eol R = true ->
  opt_rel (comment_line_rel text)
          (run_tls (pre ++ R)) (run_tls (pre ++ c_nl :: spaces k ++ c_hash :: text ++ R)).
Proof.
  intros He Hk Hc Ht HR. unfold last_indent in Hk.
  apply token_line_inv in He as (st & acc & Hp & Hflag & Hn & Hl). rewrite Hp in Hk. injection Hk as Hcur.
  pose proof (hd_eol_stop R HR) as HRs.
  assert (Hc1 : complete (hd_eol R) pre = true) by (rewrite HR; exact Hc).
  rewrite !run_tls_raw.
  rewrite (raw_split pre R st acc HRs Hc1 Hp).
  rewrite (raw_split pre (c_nl :: spaces k ++ c_hash :: text ++ R) st acc eq_refl Hc Hp).
  rewrite lex_from_nl, lex_from_spaces.
  set (A0 := state_newline st). set (A1 := Nat.iter k state_space A0).
  destruct (spaces_state k A0) as (S1 & S2 & _ & S4 & _). fold A1 in S1, S2, S4.
  destruct (spaces_indent k A0 eq_refl) as [S5 _]. fold A1 in S5.
  (* the comment hands out the pending NL of the line and no Indent or Dedent *)
  rewrite (lex_from_hash A1 text R Ht HR).
  replace (emit_layout A1) with [mk_lex (pos st) MNL].
  2:{ unfold emit_layout. rewrite S1, S2, S5. unfold A0, state_newline. cbn [newlines cur_indent line_indent].
      rewrite Hn, Hcur. cbn [rev app]. rewrite Z.leb_refl, Z.sub_diag. reflexivity. }
  cbn [app map].
  set (cm := mk_lex (pos A1) (MComment text)). set (C := after_emit A1 (MComment text)).
  assert (Hsim : res_rel 1 (Forall2 lex_k) same_indent (lex_from st R) (lex_from C R)).
  { apply (eol_sim 1 _ (inner_ok_k 1)); [exact HR | rewrite Hn; constructor | |].
    - unfold C. cbn [after_emit cur_indent]. rewrite S5. unfold A0, state_newline. cbn [line_indent]. exact Hcur.
    - unfold C. rewrite after_emit_pos. cbn [line nl_of]. rewrite S4. unfold A0, state_newline. cbn. lia. }
  pose proof (eol_first R st) as Hfirst.
  destruct (lex_from st R) as [[[a oa]|?]|?], (lex_from C R) as [[[b ob]|?]|?];
    cbn [res_rel raw_with with_acc opt_rel] in Hsim |- *; try tauto.
  destruct Hsim as [Hi Ho].
  specialize (Hfirst a oa HR (prefix_nls_ok _ _ _ Hp) eq_refl).
  set (nl := tl0 (mk_lex (pos st) MNL)).
  destruct (raw_of_tail a acc oa) as [p ->], (raw_of_tail b acc ([nl; tl0 cm] ++ ob)) as [q ->].
  pose proof (tail_sim 1 _ (inner_ok_k 1) p q a oa b ob Hi Ho) as Hrel.
  set (VA := tail_of p (a, oa)) in *. set (VB := tail_of q (b, ob)) in *.
  change (tail_of q (b, [nl; tl0 cm] ++ ob)) with (nl :: [] ++ tl0 cm :: VB).
  rewrite (docstring_pass_cut acc VA) by apply tail_head_nonstr, Hfirst.
  rewrite !docstring_pass_nonstr by reflexivity.
  exists (docstring_pass acc), (docstring_pass VA), nl, cm, (docstring_pass VB).
  repeat (split; [reflexivity|]). apply (docstring_pass_sim 1 _ (inner_ok_k 1)), Hrel.
Qed.

Lemma knf_comment_line text l1 l2 :
  comment_line_rel text l1 l2 -> exists k1 k2, knf l1 = k1 ++ k2 /\ knf l2 = k1 ++ MNL :: k2.
Proof.
  intros (u & v & x & cm & v' & -> & -> & Hx & Hxi & Hcm & _ & Hv).
  exists (knf u), (knf v). change (x :: tl0 cm :: v') with ([x] ++ [tl0 cm] ++ v').
  rewrite !knf_app, (knf_top x Hxi), (knf_top (tl0 cm) eq_refl), <- (knf_sim 1 _ (inner_ok_k 1) _ _ Hv), Hx.
  cbn [top tl0]. rewrite Hcm. split; reflexivity.
Qed.
