(** [roundtrip_canon]: for every well-formed [Core] expression [e] (no bound on size or depth) and
    all sufficiently large fuel, the model of Python's grammar parses the tokens printed for [e]
    back to exactly [as_py e].  [roundtrip] transfers this to any table equal to the reference
    table, which is how the table regenerated from the Rust source is covered. *)
From Coq Require Import List String Arith Bool Lia.
From MambaModel Require Import model.PyExpr model.CoreExpr.
Import ListNotations.

Local Notation pt := (ptoks canon).
Local Notation op := (operand canon).
Local Notation pts := (ptoks_list canon).

Definition ev (P : nat -> Prop) : Prop := exists n, forall f, n <= f -> P f.

Lemma ev_and P Q : ev P -> ev Q -> ev (fun f => P f /\ Q f).
Proof.
  intros [n Hn] [m Hm]. exists (n + m). intros f Hf. split; [apply Hn | apply Hm]; lia.
Qed.

Lemma ev_impl (P Q : nat -> Prop) : (forall f, P f -> Q f) -> ev P -> ev Q.
Proof. intros H [n Hn]. exists n. intros f Hf. apply H, Hn, Hf. Qed.

Lemma ev_S (P Q : nat -> Prop) : (forall f, P f -> Q (S f)) -> ev P -> ev Q.
Proof.
  intros H [n Hn]. exists (S n). intros f Hf. destruct f as [|f]; [lia|]. apply H, Hn. lia.
Qed.

Lemma ev_shift (P : nat -> Prop) d : ev P -> ev (fun f => d <= f /\ P (f - d)).
Proof.
  intros [n Hn]. exists (n + d). intros f Hf. split; [lia|]. apply Hn. lia.
Qed.

Lemma ev_true (P : nat -> Prop) : (forall f, P f) -> ev P.
Proof. intros H. exists 0. intros f _. apply H. Qed.

Definition atom_start (t : tok) : bool :=
  match t with
  | TName _ | TNum _ | TStr _ | TTrue | TFalse | TNone | TLPar | TLBr | TLCb => true
  | _ => false
  end.

Definition starts_atom (ts : list tok) : Prop :=
  match ts with t :: _ => atom_start t = true | [] => False end.

Definition is_closer (t : tok) : bool :=
  match t with TRPar | TRBr | TRCb => true | _ => false end.

(** the rest is empty or begins with a token that no expression continues over *)
Definition stopb (ts : list tok) : bool :=
  match ts with
  | [] => true
  | t :: _ => match t with
              | TRPar | TRBr | TRCb | TComma | TColon | TElse => true
              | _ => false
              end
  end.

Definition nontrail (ts : list tok) : Prop :=
  match ts with TLPar :: _ | TLBr :: _ | TDot :: _ => False | _ => True end.

(** the infix operator at the head of the rest, if there is one, binds below [min]: this is what makes
    [ploop] at level [min] stop in front of it, so that an operand is parsed as one unit *)
Definition lowp (ts : list tok) (min : nat) : Prop :=
  match classify ts with
  | KStop => True
  | KIf _ => 0 < min
  | KBool _ p => p < min
  | KCmp => 4 < min
  | KPow _ => 12 < min
  | KBin _ p _ => p < min
  end.

Lemma stop_nontrail ts : stopb ts = true -> nontrail ts.
Proof. destruct ts as [|t r]; [easy|]. destruct t; cbn; easy. Qed.

Lemma stop_lowp ts min : stopb ts = true -> lowp ts min.
Proof. destruct ts as [|t r]; [easy|]. destruct t; cbn; easy. Qed.

Lemma stop_cmp ts : stopb ts = true -> cmp_of ts = None.
Proof. destruct ts as [|t r]; [easy|]. destruct t; cbn; easy. Qed.

Lemma stop_not_tok ts b :
  stopb ts = true -> match ts with t :: _ => is_tok t (bool_tok b) = false | [] => True end.
Proof. destruct ts as [|t r]; [easy|]. destruct b, t; cbn; easy. Qed.

Lemma pexp_atom f min ts :
  starts_atom ts ->
  pexp (S f) min ts =
  match pprim f ts with Some (e, r1) => ploop f min e r1 | None => None end.
Proof.
  destruct ts as [|t r]; [easy|]. intros H. destruct t; try discriminate H; cbn [pexp]; reflexivity.
Qed.

Lemma ptrail_stop f x ts : nontrail ts -> ptrail (S f) x ts = Some (x, ts).
Proof. destruct ts as [|t r]; [easy|]. destruct t; cbn [ptrail nontrail]; easy. Qed.

Lemma ploop_stop f min x ts : lowp ts min -> ploop (S f) min x ts = Some (x, ts).
Proof.
  unfold lowp. cbn [ploop]. destruct (classify ts) as [r|o p| |r|o p r|]; intros H; try reflexivity.
  { destruct min; [lia|]. reflexivity. }
  all: apply Nat.leb_gt in H; rewrite H; reflexivity.
Qed.

Definition expr_start (t : tok) : bool :=
  atom_start t || match t with TNot | TMinus | TPlus | TTilde | TLambda => true | _ => false end.

Definition starts_expr (ts : list tok) : Prop :=
  match ts with t :: _ => expr_start t = true | [] => False end.

Lemma starts_atom_expr ts : starts_atom ts -> starts_expr ts.
Proof. destruct ts as [|t r]; [easy|]. unfold starts_expr, expr_start. intros ->. reflexivity. Qed.

Lemma pprim_lpar f ts :
  starts_expr ts ->
  pprim (S f) (TLPar :: ts) =
  match pexp f 0 ts with
  | Some (e, TRPar :: r2) => ptrail f e r2
  | Some (e, TComma :: r2) =>
      match pitems f TRPar r2 with
      | Some (es, r3) => ptrail f (PTuple (e :: es)) r3
      | None => None
      end
  | _ => None
  end.
Proof.
  destruct ts as [|t r]; [easy|]. intros H. destruct t; try discriminate H; cbn [pprim]; reflexivity.
Qed.

Lemma pitems_step f c ts :
  starts_expr ts -> is_closer c = true ->
  pitems (S f) c ts =
  match pexp f 0 ts with
  | Some (e, TComma :: r2) =>
      match pitems f c r2 with
      | Some (es, r3) => Some (e :: es, r3)
      | None => None
      end
  | Some (e, t' :: r2) => if is_tok t' c then Some ([e], r2) else None
  | _ => None
  end.
Proof.
  destruct ts as [|t r]; [easy|]. intros Ht Hc. cbn [pitems].
  replace (is_tok t c) with false; [reflexivity|].
  destruct c; try discriminate Hc; destruct t; try reflexivity; discriminate Ht.
Qed.

Lemma pitems_close f c rest :
  is_closer c = true -> pitems (S f) c (c :: rest) = Some ([], rest).
Proof. intros H. destruct c; try discriminate H; reflexivity. Qed.

Lemma plam_names ns r : plam_args (name_toks ns ++ TColon :: r) = Some (ns, r).
Proof.
  induction ns as [|n ns IH]; [reflexivity|].
  destruct ns as [|n2 ns]; [reflexivity|].
  change (name_toks (n :: n2 :: ns)) with (TName n :: TComma :: name_toks (n2 :: ns)).
  cbn [app plam_args]. rewrite IH. reflexivity.
Qed.

Lemma wrap_true ts : wrap true true ts = TLPar :: ts ++ [TRPar].
Proof. reflexivity. Qed.

Lemma op_compound e :
  canon_compound (kind_of e) = true -> op e = TLPar :: pt e ++ [TRPar].
Proof. unfold operand. cbn [compound canon]. intros ->. reflexivity. Qed.

Lemma op_simple e : canon_compound (kind_of e) = false -> op e = pt e.
Proof. unfold operand. cbn [compound canon]. intros ->. reflexivity. Qed.

Lemma interp_lits ts ps ch : interp (map PT ts ++ ps) ch = ts ++ interp ps ch.
Proof. induction ts as [|t ts IH]; [reflexivity|]. cbn. rewrite IH. reflexivity. Qed.

Lemma pt_bin o l r : pt (CBin o l r) = op l ++ bin_toks o ++ op r.
Proof.
  change (pt (CBin o l r))
    with (op l ++ interp (map PT (bin_toks o) ++ [PH 1 true])
                    [(pt l, canon_compound (kind_of l)); (pt r, canon_compound (kind_of r))]).
  rewrite interp_lits. cbn [interp nth]. rewrite app_nil_r. reflexivity.
Qed.
Lemma pt_un o x : pt (CUn o x) = un_tok o :: op x.
Proof. cbn. rewrite app_nil_r. reflexivity. Qed.
Lemma pt_isa l r :
  pt (CIsA l r) = TName "isinstance" :: TLPar :: pts (CCons l (CCons r CNil)) ++ [TRPar].
Proof. cbn. rewrite <- app_assoc. reflexivity. Qed.
Lemma pt_sqrt x :
  pt (CSqrt x) = TName "math" :: TDot :: TName "sqrt" :: TLPar :: pts (CCons x CNil) ++ [TRPar].
Proof. reflexivity. Qed.
Lemma pt_ternary c t x : pt (CTernary c t x) = op t ++ TIf :: op c ++ TElse :: op x.
Proof. cbn. rewrite app_nil_r. reflexivity. Qed.
Lemma pt_lambda ns b : pt (CLambda ns b) = TLambda :: name_toks ns ++ TColon :: pt b.
Proof. cbn. rewrite app_nil_r. reflexivity. Qed.
Lemma pt_call g args : pt (CCall g args) = op g ++ TLPar :: pts args ++ [TRPar].
Proof. reflexivity. Qed.
Lemma pt_index i r : pt (CIndex i r) = op i ++ TLBr :: pt r ++ [TRBr].
Proof. reflexivity. Qed.
Lemma pt_prop o p : pt (CProp o p) = op o ++ TDot :: pt p.
Proof. cbn. rewrite app_nil_r. reflexivity. Qed.
Lemma pt_tuple es : pt (CTuple es) = TLPar :: pts es ++ [TRPar].
Proof. reflexivity. Qed.
Lemma pt_list es : pt (CList es) = TLBr :: pts es ++ [TRBr].
Proof. reflexivity. Qed.
Lemma pt_set es : pt (CSet es) = TLCb :: pts es ++ [TRCb].
Proof. reflexivity. Qed.
Lemma pts_cons2 e e2 es : pts (CCons e (CCons e2 es)) = pt e ++ TComma :: pts (CCons e2 es).
Proof. reflexivity. Qed.
Lemma pts_one e : pts (CCons e CNil) = pt e.
Proof. reflexivity. Qed.

Lemma starts_atom_app ts rest : starts_atom ts -> starts_atom (ts ++ rest).
Proof. destruct ts; easy. Qed.

Lemma op_starts_atom e : starts_atom (op e).
Proof.
  induction e using cexpr_mut with (P0 := fun _ => True); try exact I;
    first
      [ rewrite op_compound by reflexivity; reflexivity
      | rewrite op_simple by reflexivity;
        first
          [ reflexivity
          | destruct b; reflexivity
          | rewrite pt_call; apply starts_atom_app; assumption
          | rewrite pt_index; apply starts_atom_app; assumption
          | rewrite pt_prop; apply starts_atom_app; assumption ] ].
Qed.

Lemma pt_starts e : starts_expr (pt e).
Proof.
  destruct (canon_compound (kind_of e)) eqn:Hc.
  - destruct e; try discriminate Hc.
    + rewrite pt_bin. apply starts_atom_expr, starts_atom_app, op_starts_atom.
    + rewrite pt_un. destruct o; reflexivity.
    + rewrite pt_ternary. apply starts_atom_expr, starts_atom_app, op_starts_atom.
    + rewrite pt_lambda. reflexivity.
  - rewrite <- (op_simple e Hc). apply starts_atom_expr, op_starts_atom.
Qed.

Lemma starts_expr_app ts rest : starts_expr ts -> starts_expr (ts ++ rest).
Proof. destruct ts; easy. Qed.

(** primary position, with the trailers that follow still to be parsed *)
Definition T (e : cexpr) : Prop :=
  exists d, ev (fun f => forall rest,
    pprim (d + f) (op e ++ rest) = ptrail f (as_py e) rest).
Definition M (e : cexpr) : Prop :=
  ev (fun f => forall rest, stopb rest = true ->
    pexp f 0 (pt e ++ rest) = Some (as_py e, rest)).
Definition O (e : cexpr) : Prop :=
  ev (fun f => forall min rest, nontrail rest -> lowp rest min ->
    pexp f min (op e ++ rest) = Some (as_py e, rest)).
(** property position: trailers hanging off [x] *)
Definition A (p : cexpr) : Prop :=
  exists d, ev (fun f => forall x rest,
    ptrail (d + f) x (TDot :: pt p ++ rest) = ptrail f (attach x p) rest).
Definition Items (es : cexprs) : Prop :=
  ev (fun f => forall c rest, is_closer c = true ->
    pitems f c (pts es ++ c :: rest) = Some (as_pys es, rest)).

Lemma T_closed e : T e ->
  ev (fun f => forall rest, nontrail rest -> pprim f (op e ++ rest) = Some (as_py e, rest)).
Proof.
  intros [d [n H]]. exists (d + n + 1). intros f Hf rest Hr.
  replace f with (d + (f - d)) by lia. rewrite H by lia.
  destruct (f - d) as [|g] eqn:Hg; [lia|]. apply ptrail_stop, Hr.
Qed.

Lemma O_of_T e : T e -> O e.
Proof.
  intros HT. apply T_closed in HT. revert HT. apply ev_S.
  intros f H min rest Hr Hl.
  rewrite pexp_atom by (apply starts_atom_app, op_starts_atom).
  rewrite H by exact Hr.
  destruct f as [|f].
  - specialize (H rest Hr). cbn in H. discriminate H.
  - apply ploop_stop, Hl.
Qed.

Lemma M_of_O_simple e : canon_compound (kind_of e) = false -> O e -> M e.
Proof.
  intros Hc. apply ev_impl. intros f H rest Hs.
  rewrite <- (op_simple e Hc). apply H; [apply stop_nontrail | apply stop_lowp]; exact Hs.
Qed.

Lemma T_compound e : canon_compound (kind_of e) = true -> M e -> T e.
Proof.
  intros Hc HM. exists 1. revert HM. apply ev_impl. intros f H rest.
  rewrite (op_compound e Hc). cbn [app]. rewrite <- app_assoc. cbn [app].
  change (1 + f) with (S f).
  rewrite pprim_lpar by (apply starts_expr_app, pt_starts).
  rewrite H by reflexivity. reflexivity.
Qed.

Lemma I_nil : Items CNil.
Proof.
  exists 1. intros f Hf c rest Hc. destruct f as [|f]; [lia|]. apply pitems_close, Hc.
Qed.

Lemma I_cons e es : M e -> Items es -> Items (CCons e es).
Proof.
  intros HM HI. pose proof (ev_and _ _ HM HI) as H. revert H. apply ev_S.
  intros f [He Hes] c rest Hc.
  destruct es as [|e2 es].
  - rewrite pts_one.
    rewrite pitems_step by (try apply starts_expr_app, pt_starts; exact Hc).
    rewrite He by (destruct c; easy).
    destruct c; try discriminate Hc; reflexivity.
  - rewrite pts_cons2. rewrite <- app_assoc. cbn [app].
    rewrite pitems_step by (try apply starts_expr_app, pt_starts; exact Hc).
    rewrite He by reflexivity.
    rewrite Hes by exact Hc. reflexivity.
Qed.

Lemma call_trail g' es : Items es ->
  ev (fun f => forall rest,
    ptrail (S f) g' (TLPar :: pts es ++ TRPar :: rest) = ptrail f (PCall g' (as_pys es)) rest).
Proof.
  apply ev_impl. intros f H rest. cbn [ptrail]. rewrite H by reflexivity. reflexivity.
Qed.

Lemma stop_after (P : Prop) : P -> P. Proof. easy. Qed.

(* [fuel f] peels one nested call of the parser; the constant added to the bound in each lemma below
   (3, 6) is at least the number of peels its proof makes *)
Ltac fuel f := destruct f as [|f]; [exfalso; lia|].

Lemma M_un o x : O x -> M (CUn o x).
Proof.
  intros [n H]. exists (n + 3). intros f Hf rest Hs.
  rewrite pt_un. cbn [app]. fuel f.
  assert (Hx : forall min, pexp f min (op x ++ rest) = Some (as_py x, rest)).
  { intros min. apply H; [lia | apply stop_nontrail, Hs | apply stop_lowp, Hs]. }
  assert (Hl : forall y, ploop f 0 y rest = Some (y, rest)).
  { intros y. fuel f. apply ploop_stop, stop_lowp, Hs. }
  destruct o; cbn [un_tok pexp Nat.leb]; rewrite Hx, Hl; reflexivity.
Qed.

Lemma M_lambda ns b : M b -> M (CLambda ns b).
Proof.
  apply ev_S. intros f H rest Hs.
  rewrite pt_lambda. cbn [app]. rewrite <- app_assoc. cbn [app pexp Nat.eqb].
  rewrite plam_names. rewrite H by exact Hs. reflexivity.
Qed.

Lemma M_ternary c t x : T t -> O c -> O x -> M (CTernary c t x).
Proof.
  intros Ht Hc Hx. apply T_closed in Ht.
  destruct Ht as [nt Ht], Hc as [nc Hc], Hx as [nx Hx].
  exists (nt + nc + nx + 3). intros f Hf rest Hs.
  rewrite pt_ternary. rewrite <- app_assoc. cbn [app]. rewrite <- app_assoc. cbn [app].
  fuel f. rewrite pexp_atom by (apply starts_atom_app, op_starts_atom).
  rewrite Ht by (try lia; exact I).
  fuel f. cbn [ploop classify Nat.eqb].
  rewrite Hc; [| lia | exact I | cbn; lia].
  rewrite Hx; [| lia | apply stop_nontrail, Hs | apply stop_lowp, Hs].
  reflexivity.
Qed.

Lemma cmp_of_bin o c ts :
  bin_class o = inr (inr c) -> starts_atom ts -> cmp_of (bin_toks o ++ ts) = Some (c, ts).
Proof.
  destruct ts as [|t r]; [easy|]. intros E Ha.
  destruct o; try discriminate E; injection E as <-; try reflexivity; destruct t; cbn in *; easy.
Qed.

Lemma classify_cmp ts x : cmp_of ts = Some x -> classify ts = KCmp.
Proof.
  destruct ts as [|t r]; [discriminate|]. intros H.
  destruct t; try discriminate H; cbn [classify]; rewrite H; reflexivity.
Qed.

(** left-associative binary operators and [**]; boolean operators; comparisons *)
Lemma M_bin o l r : T l -> O r -> M (CBin o l r).
Proof.
  intros Hl Hr. apply T_closed in Hl.
  destruct Hl as [nl Hl], Hr as [nr Hr].
  exists (nl + nr + 6). intros f Hf rest Hs.
  rewrite pt_bin. rewrite <- !app_assoc.
  fuel f. rewrite pexp_atom by (apply starts_atom_app, op_starts_atom).
  assert (Hr' : forall g min, nr <= g -> pexp g min (op r ++ rest) = Some (as_py r, rest)).
  { intros g min Hg. apply Hr; [exact Hg | apply stop_nontrail, Hs | apply stop_lowp, Hs]. }
  assert (Hstop : forall g y, 1 <= g -> ploop g 0 y rest = Some (y, rest)).
  { intros g y Hg. destruct g; [lia|]. apply ploop_stop, stop_lowp, Hs. }
  rewrite Hl by (try lia; destruct o; exact I). fuel f. cbn [as_py].
  destruct (bin_class o) as [b | [b | c]] eqn:E.
  - destruct o; try discriminate E; injection E as <-;
      cbn [bin_toks app ploop classify cmp_of bin_of Nat.leb];
      rewrite Hr' by lia; rewrite Hstop by lia; reflexivity.
  - pose proof (stop_not_tok rest b Hs) as Hn.
    destruct o; try discriminate E; injection E as <-;
      cbn [bin_toks app ploop classify Nat.leb bool_tok]; fuel f; cbn [pbools is_tok];
      rewrite Hr' by lia; fuel f; cbn [pbools];
      (destruct rest as [|t0 rest0]; [| cbn [bool_tok] in Hn; rewrite Hn]); cbn [rev app];
      rewrite Hstop by lia; reflexivity.
  - pose proof (cmp_of_bin o c _ E (starts_atom_app _ rest (op_starts_atom r))) as Hc.
    cbn [ploop]. rewrite (classify_cmp _ _ Hc). cbn [Nat.leb]. fuel f. cbn [pcmps].
    rewrite Hc, Hr' by lia. fuel f. cbn [pcmps]. rewrite (stop_cmp rest Hs). cbn [rev app].
    rewrite Hstop by lia. reflexivity.
Qed.

Lemma T_atom e :
  match e with CId _ | CInt _ | CFloat _ | CStr _ | CBool _ | CNone => True | _ => False end ->
  T e.
Proof.
  intros He. exists 1. apply ev_true. intros f rest.
  destruct e; try contradiction; try reflexivity. destruct b; reflexivity.
Qed.

(** the printed form of [CENum] is a fixed string of seven tokens: parsing it is a computation *)
Lemma enum_parse g n x rest :
  pexp (12 + g) 0 (TNum n :: TStar :: TNum "10"%string :: TDStar :: TNum x :: TRPar :: rest)
  = Some (as_py (CENum n x), TRPar :: rest).
Proof. reflexivity. Qed.

Lemma T_enum n x : T (CENum n x).
Proof.
  exists 1. exists 12. intros f Hf rest. rewrite op_simple by reflexivity.
  change (pt (CENum n x) ++ rest)
    with (TLPar :: TNum n :: TStar :: TNum "10"%string :: TDStar :: TNum x :: TRPar :: rest).
  change (1 + f) with (S f). rewrite pprim_lpar by reflexivity.
  replace f with (12 + (f - 12)) by lia. rewrite enum_parse. reflexivity.
Qed.

Lemma T_isa l r : M l -> M r -> T (CIsA l r).
Proof.
  intros Hl Hr. pose proof (call_trail (PName "isinstance") _ (I_cons _ _ Hl (I_cons _ _ Hr I_nil))) as H.
  exists 2. revert H. apply ev_impl. intros f H rest.
  rewrite op_simple by reflexivity. rewrite pt_isa. cbn [app]. rewrite <- app_assoc. cbn [app].
  change (2 + f) with (S (S f)). cbn [pprim]. rewrite H. reflexivity.
Qed.

Lemma T_sqrt x : M x -> T (CSqrt x).
Proof.
  intros Hx.
  pose proof (call_trail (PAttr (PName "math") "sqrt") _ (I_cons _ _ Hx I_nil)) as H.
  exists 3. revert H. apply ev_impl. intros f H rest.
  rewrite op_simple by reflexivity. rewrite pt_sqrt. cbn [app]. rewrite <- app_assoc. cbn [app].
  change (3 + f) with (S (S (S f))). cbn [pprim].
  change (ptrail (S (S f)) (PName "math") (TDot :: TName "sqrt" :: ?r))
    with (ptrail (S f) (PAttr (PName "math") "sqrt") r).
  rewrite H. reflexivity.
Qed.

Lemma T_call g args : T g -> Items args -> T (CCall g args).
Proof.
  intros [d Hg] Ha. pose proof (fun g' => call_trail g' _ Ha) as Hc.
  exists (S d).
  assert (H : ev (fun f => (forall rest, pprim (d + S f) (op g ++ rest) = ptrail (S f) (as_py g) rest)
                          /\ forall g' rest, ptrail (S f) g' (TLPar :: pts args ++ TRPar :: rest)
                                        = ptrail f (PCall g' (as_pys args)) rest)).
  { destruct Hg as [n Hg], Ha as [m Ha]. exists (n + m). intros f Hf. split.
    - intros rest. apply Hg. lia.
    - intros g' rest. cbn [ptrail]. rewrite Ha by (try lia; reflexivity). reflexivity. }
  revert H. apply ev_impl. intros f [H1 H2] rest.
  rewrite op_simple by reflexivity. rewrite pt_call. rewrite <- app_assoc. cbn [app].
  rewrite <- app_assoc. cbn [app].
  replace (S d + f) with (d + S f) by lia. rewrite H1, H2. reflexivity.
Qed.

Lemma T_index i r : T i -> M r -> T (CIndex i r).
Proof.
  intros [d [n Hi]] [m Hr]. exists (S d). exists (n + m). intros f Hf rest.
  rewrite op_simple by reflexivity. rewrite pt_index. rewrite <- app_assoc. cbn [app].
  rewrite <- app_assoc. cbn [app].
  replace (S d + f) with (d + S f) by lia. rewrite Hi by lia. cbn [ptrail].
  rewrite Hr by (try lia; reflexivity). reflexivity.
Qed.

Lemma T_prop o p : T o -> A p -> T (CProp o p).
Proof.
  intros [d [n Ho]] [d' [m Hp]]. exists (d + d'). exists (n + m). intros f Hf rest.
  rewrite op_simple by reflexivity. rewrite pt_prop. rewrite <- app_assoc. cbn [app].
  replace (d + d' + f) with (d + (d' + f)) by lia. rewrite Ho by lia.
  rewrite Hp by lia. reflexivity.
Qed.

Lemma T_tuple_nil : T (CTuple CNil).
Proof. exists 1. apply ev_true. intros f rest. reflexivity. Qed.

Lemma T_tuple e e2 es : M e -> Items (CCons e2 es) -> T (CTuple (CCons e (CCons e2 es))).
Proof.
  intros [n He] [m Hes]. exists 1. exists (n + m). intros f Hf rest.
  rewrite op_simple by reflexivity. rewrite pt_tuple. rewrite pts_cons2.
  cbn [app]. rewrite <- !app_assoc. cbn [app].
  change (1 + f) with (S f).
  rewrite pprim_lpar by (apply starts_expr_app, pt_starts).
  rewrite He by (try lia; reflexivity).
  rewrite Hes by (try lia; reflexivity). reflexivity.
Qed.

Lemma T_list es : Items es -> T (CList es).
Proof.
  intros [n H]. exists 1. exists n. intros f Hf rest.
  rewrite op_simple by reflexivity. rewrite pt_list. cbn [app]. rewrite <- app_assoc. cbn [app].
  change (1 + f) with (S f). cbn [pprim]. rewrite H by (try lia; reflexivity). reflexivity.
Qed.

Lemma T_set e es : Items (CCons e es) -> T (CSet (CCons e es)).
Proof.
  intros [n H]. exists 1. exists n. intros f Hf rest.
  rewrite op_simple by reflexivity. rewrite pt_set. cbn [app]. rewrite <- app_assoc. cbn [app].
  change (1 + f) with (S f). cbn [pprim]. rewrite H by (try lia; reflexivity). reflexivity.
Qed.

Lemma wfp_simple p : wfp_ p = true -> canon_compound (kind_of p) = false.
Proof. destruct p; cbn; easy. Qed.

Lemma A_id s : A (CId s).
Proof. exists 1. apply ev_true. intros f x rest. reflexivity. Qed.

Lemma A_call g args : wfp_ g = true -> A g -> Items args -> A (CCall g args).
Proof.
  intros Hw [d [n Hg]] [m Ha]. exists (S d). exists (n + m). intros f Hf x rest.
  rewrite pt_call. rewrite (op_simple g (wfp_simple g Hw)).
  rewrite <- app_assoc. cbn [app]. rewrite <- app_assoc. cbn [app].
  replace (S d + f) with (d + S f) by lia. rewrite Hg by lia. cbn [ptrail attach].
  rewrite Ha by (try lia; reflexivity). reflexivity.
Qed.

Lemma A_index i r : wfp_ i = true -> A i -> M r -> A (CIndex i r).
Proof.
  intros Hw [d [n Hi]] [m Hr]. exists (S d). exists (n + m). intros f Hf x rest.
  rewrite pt_index. rewrite (op_simple i (wfp_simple i Hw)).
  rewrite <- app_assoc. cbn [app]. rewrite <- app_assoc. cbn [app].
  replace (S d + f) with (d + S f) by lia. rewrite Hi by lia. cbn [ptrail attach].
  rewrite Hr by (try lia; reflexivity). reflexivity.
Qed.

Lemma A_prop o q : wfp_ o = true -> A o -> A q -> A (CProp o q).
Proof.
  intros Hw [d [n Ho]] [d' [m Hq]]. exists (d + d'). exists (n + m). intros f Hf x rest.
  rewrite pt_prop. rewrite (op_simple o (wfp_simple o Hw)).
  rewrite <- app_assoc. cbn [app].
  replace (d + d' + f) with (d + (d' + f)) by lia. rewrite Ho by lia.
  rewrite Hq by lia. reflexivity.
Qed.

Lemma simple_TM e : canon_compound (kind_of e) = false -> T e -> T e /\ M e.
Proof. intros Hc HT. split; [exact HT|]. apply M_of_O_simple; [exact Hc|]. apply O_of_T, HT. Qed.

Lemma compound_TM e : canon_compound (kind_of e) = true -> M e -> T e /\ M e.
Proof. intros Hc HM. split; [apply T_compound; assumption | exact HM]. Qed.

(* a compound kind gets [M] from its sub-terms and then [T] through the parentheses that [operand] puts
   around it; every other kind gets [T] and then [M] through [O] *)
Lemma main :
  (forall e, (wf e = true -> T e /\ M e) /\ (wfp_ e = true -> A e))
  /\ (forall es, wfs es = true ->
        Items es /\ match es with CCons e es' => M e /\ Items es' | CNil => True end).
Proof.
  apply cexpr_cexprs_ind;
    try (intros; split; [intros _; apply simple_TM, T_atom; easy | discriminate]).
  - (* CId *) intros s. split; intros _; [apply simple_TM, T_atom; easy | apply A_id].
  - intros n x. split; [intros _; apply simple_TM, T_enum; easy | discriminate].
  - (* CBin *) intros o l [IHl _] r [IHr _]. split; [|discriminate].
    cbn [wf]. intros H. apply andb_prop in H as [Hl Hr].
    apply compound_TM; [reflexivity|]. apply M_bin; [apply IHl, Hl | apply O_of_T, IHr, Hr].
  - (* CUn *) intros o x [IHx _]. split; [|discriminate]. cbn [wf]. intros H.
    apply compound_TM; [reflexivity|]. apply M_un, O_of_T, IHx, H.
  - (* CIsA *) intros l [IHl _] r [IHr _]. split; [|discriminate].
    cbn [wf]. intros H. apply andb_prop in H as [Hl Hr].
    apply simple_TM; [reflexivity|]. apply T_isa; [apply IHl, Hl | apply IHr, Hr].
  - (* CSqrt *) intros x [IHx _]. split; [|discriminate]. cbn [wf]. intros H.
    apply simple_TM; [reflexivity|]. apply T_sqrt, IHx, H.
  - (* CTernary *) intros c [IHc _] t [IHt _] x [IHx _]. split; [|discriminate].
    cbn [wf]. intros H. apply andb_prop in H as [H Hx]. apply andb_prop in H as [Hc Ht].
    apply compound_TM; [reflexivity|].
    apply M_ternary; [apply IHt, Ht | apply O_of_T, IHc, Hc | apply O_of_T, IHx, Hx].
  - (* CLambda *) intros ns b [IHb _]. split; [|discriminate]. cbn [wf]. intros H.
    apply compound_TM; [reflexivity|]. apply M_lambda, IHb, H.
  - (* CCall *) intros g [IHg IHgp] args IHa. split.
    + cbn [wf]. intros H. apply andb_prop in H as [Hg Ha].
      apply simple_TM; [reflexivity|]. apply T_call; [apply IHg, Hg | apply (IHa Ha)].
    + cbn [wfp_]. intros H. apply andb_prop in H as [Hg Ha].
      apply A_call; [exact Hg | apply IHgp, Hg | apply (IHa Ha)].
  - (* CIndex *) intros i [IHi IHip] r [IHr _]. split.
    + cbn [wf]. intros H. apply andb_prop in H as [Hi Hr].
      apply simple_TM; [reflexivity|]. apply T_index; [apply IHi, Hi | apply IHr, Hr].
    + cbn [wfp_]. intros H. apply andb_prop in H as [Hi Hr].
      apply A_index; [exact Hi | apply IHip, Hi | apply IHr, Hr].
  - (* CProp *) intros o [IHo IHop] p [_ IHp]. split.
    + cbn [wf]. intros H. apply andb_prop in H as [H _]. apply andb_prop in H as [Ho Hp].
      apply simple_TM; [reflexivity|]. apply T_prop; [apply IHo, Ho | apply IHp, Hp].
    + cbn [wfp_]. intros H. apply andb_prop in H as [Ho Hp].
      apply A_prop; [exact Ho | apply IHop, Ho | apply IHp, Hp].
  - (* CTuple *) intros es IH. split; [|discriminate]. cbn [wf]. intros H.
    apply andb_prop in H as [Hes Hlen]. apply simple_TM; [reflexivity|].
    destruct es as [|e [|e2 es]]; [apply T_tuple_nil | discriminate Hlen |].
    destruct (IH Hes) as [_ [He Hes']]. apply T_tuple; assumption.
  - (* CList *) intros es IH. split; [|discriminate]. cbn [wf]. intros H.
    apply simple_TM; [reflexivity|]. apply T_list, (IH H).
  - (* CSet *) intros es IH. split; [|discriminate]. cbn [wf]. intros H.
    apply andb_prop in H as [Hes Hlen]. apply simple_TM; [reflexivity|].
    destruct es as [|e es]; [discriminate Hlen|]. apply T_set, (IH Hes).
  - (* CNil *) intros _. split; [apply I_nil | exact I].
  - (* CCons *) intros e [IHe _] es IHes. cbn [wfs]. intros H. apply andb_prop in H as [He Hes].
    destruct (IHe He) as [_ HMe]. destruct (IHes Hes) as [HI _].
    split; [apply I_cons; assumption | split; assumption].
Qed.

Theorem roundtrip_canon e :
  wf e = true ->
  exists n, forall f, n <= f -> py_parse f (ptoks canon e) = Some (as_py e).
Proof.
  intros Hw. destruct (proj1 (proj1 main e) Hw) as [_ [n HM]].
  exists n. intros f Hf. unfold py_parse. specialize (HM f Hf [] eq_refl).
  rewrite app_nil_r in HM. rewrite HM. reflexivity.
Qed.

Lemma tok_eqb_eq a b : tok_eqb a b = true -> a = b.
Proof.
  destruct a, b; try discriminate; try reflexivity;
    intros H; apply String.eqb_eq in H; subst; reflexivity.
Qed.

Lemma piece_eqb_eq a b : piece_eqb a b = true -> a = b.
Proof.
  destruct a as [x|i w], b as [y|j v]; cbn; intros H; try discriminate H.
  - apply tok_eqb_eq in H. subst. reflexivity.
  - apply andb_prop in H as [Hi Hw]. apply Nat.eqb_eq in Hi. apply Bool.eqb_prop in Hw.
    subst. reflexivity.
Qed.

Lemma pieces_eqb_eq a b : pieces_eqb a b = true -> a = b.
Proof.
  revert b. induction a as [|x a IH]; intros [|y b] H; cbn in H; try discriminate H; [reflexivity|].
  apply andb_prop in H as [Hx Ha]. apply piece_eqb_eq in Hx. apply IH in Ha. subst. reflexivity.
Qed.

Lemma all_binops_complete o : In o all_binops.
Proof. destruct o; unfold all_binops; auto 25 using in_eq, in_cons. Qed.

Lemma all_unops_complete o : In o all_unops.
Proof. destruct o; unfold all_unops; auto using in_eq, in_cons. Qed.

Lemma all_kinds_complete k : In k all_kinds.
Proof.
  unfold all_kinds. rewrite !in_app_iff.
  destruct k; auto 15 using in_eq, in_cons, in_map, all_binops_complete, all_unops_complete.
Qed.

Lemma table_ok_spec tb :
  table_ok tb = true ->
  forall k, tpl tb k = canon_tpl k /\ compound tb k = canon_compound k.
Proof.
  intros H k. unfold table_ok in H. rewrite forallb_forall in H.
  specialize (H k (all_kinds_complete k)). apply andb_prop in H as [H1 H2].
  split; [apply pieces_eqb_eq, H1 | apply Bool.eqb_prop, H2].
Qed.

Lemma ptoks_call_unf tb g args :
  ptoks tb (CCall g args)
  = interp (tpl tb KCall) [(ptoks tb g, compound tb (kind_of g)); (ptoks_list tb args, false)].
Proof. reflexivity. Qed.
Lemma ptoks_tuple_unf tb es : ptoks tb (CTuple es) = interp (tpl tb KTuple) [(ptoks_list tb es, false)].
Proof. reflexivity. Qed.
Lemma ptoks_list_unf tb es : ptoks tb (CList es) = interp (tpl tb KList) [(ptoks_list tb es, false)].
Proof. reflexivity. Qed.
Lemma ptoks_set_unf tb es : ptoks tb (CSet es) = interp (tpl tb KSet) [(ptoks_list tb es, false)].
Proof. reflexivity. Qed.

Lemma ptoks_ext tb :
  table_ok tb = true ->
  (forall e, ptoks tb e = ptoks canon e) /\ (forall es, ptoks_list tb es = ptoks_list canon es).
Proof.
  intros Hok. pose proof (table_ok_spec tb Hok) as Hk.
  assert (Ht : forall k, tpl tb k = tpl canon k) by (intros k; apply Hk).
  assert (Hc : forall k, compound tb k = compound canon k) by (intros k; apply Hk).
  apply cexpr_cexprs_ind;
    try (intros; cbn [ptoks]; rewrite ?Ht, ?Hc;
         repeat match goal with H : _ = _ |- _ => rewrite H; clear H end; reflexivity).
  - intros g IHg args IHa. rewrite !ptoks_call_unf, Ht, Hc, IHg, IHa. reflexivity.
  - intros es IH. rewrite !ptoks_tuple_unf, Ht, IH. reflexivity.
  - intros es IH. rewrite !ptoks_list_unf, Ht, IH. reflexivity.
  - intros es IH. rewrite !ptoks_set_unf, Ht, IH. reflexivity.
  - intros e IHe es IHes. destruct es as [|e2 es].
    + change (ptoks_list tb (CCons e CNil)) with (ptoks tb e). rewrite IHe. reflexivity.
    + change (ptoks_list tb (CCons e (CCons e2 es)))
        with (ptoks tb e ++ TComma :: ptoks_list tb (CCons e2 es)).
      rewrite IHe, IHes. reflexivity.
Qed.

Theorem roundtrip tb e :
  table_ok tb = true -> wf e = true ->
  exists n, forall f, n <= f -> py_parse f (ptoks tb e) = Some (as_py e).
Proof.
  intros Hok Hw. destruct (ptoks_ext tb Hok) as [He _]. rewrite He. apply roundtrip_canon, Hw.
Qed.
