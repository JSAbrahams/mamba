(** * C15: what an injective renaming that fixes [reserved] leaves alone - the name table, the operator
      names and the tests of the generator on converted sub-terms *)
From Coq Require Import List String Bool.
From MambaModel Require Import model.Core gen.Names model.Convert model.Rename proofs.ConvertProps.
Import ListNotations.
Local Open Scope string_scope.

Lemma lookup_in_some k (tbl : list (string * string)) :
  In k (map fst tbl) -> exists v, lookup k tbl = Some v.
Proof.
  induction tbl as [|[k' v'] r IH]; [intros []|]. cbn [lookup map fst In].
  destruct (String.eqb_spec k k') as [->|N]; [eexists; reflexivity|].
  intros [E|H]; [congruence | apply IH, H].
Qed.

Lemma in_consts s : In s reserved_consts -> In s reserved.
Proof. intros H. unfold reserved. rewrite !in_app_iff. tauto. Qed.
Lemma in_dunder s : In s (map snd dunder) -> In s reserved.
Proof. intros H. unfold reserved. rewrite !in_app_iff. tauto. Qed.
Lemma in_funop o : In (funop_name o) reserved.
Proof.
  unfold reserved. rewrite !in_app_iff. right. right. right. left. apply in_map.
  destruct o; cbn [all_funops In]; tauto.
Qed.
Lemma in_py_dom s : In s (map fst renamed_rows) -> In s reserved.
Proof. intros H. unfold reserved. rewrite !in_app_iff. tauto. Qed.
Lemma in_py_ran s : In s (map snd renamed_rows) -> In s reserved.
Proof. intros H. unfold reserved. rewrite !in_app_iff. tauto. Qed.

Lemma c2p_changes s : concrete_to_python s <> s ->
  In s (map fst renamed_rows) /\ In (concrete_to_python s) (map snd renamed_rows).
Proof.
  unfold concrete_to_python. destruct (lookup s py_names) as [p|] eqn:E; [|congruence]. intros N.
  assert (Hin : In (s, p) renamed_rows).
  { unfold renamed_rows. apply filter_In. split; [apply lookup_in, E|]. cbn [fst snd].
    destruct (String.eqb_spec s p); [congruence | reflexivity]. }
  split; [apply (in_map fst _ _ Hin) | apply (in_map snd _ _ Hin)].
Qed.

(** the hypotheses on a renaming, as a class so that later files pick them up from the context *)
Class Good (rho : string -> string) : Prop := { Hinj : injective rho; Hfix : fixes rho reserved }.

Section Equivariance.
  Context {rho : string -> string} {rfs : string -> string} {G : Good rho}.

  Notation ren := (ren_core rho rfs).
  Notation rena := (ren_ast rho rfs).
  Notation rnm := (ren_nm rho).
  Notation rtn := (ren_tn rho).
  Notation ronm := (ren_onm rho).
  Notation rst := (ren_state rho rfs).

  Lemma eqb_fixed s d : In d reserved -> String.eqb (rho s) d = String.eqb s d.
  Proof.
    intros Hd. destruct (String.eqb_spec s d) as [->|N].
    - rewrite (Hfix d Hd). apply String.eqb_refl.
    - apply String.eqb_neq. intros E. apply N, Hinj. rewrite E. symmetry. apply Hfix, Hd.
  Qed.
  Lemma eqb_const s d : In d reserved_consts -> String.eqb (rho s) d = String.eqb s d.
  Proof. intros H. apply eqb_fixed, in_consts, H. Qed.
  Lemma eqb_inj a b : String.eqb (rho a) (rho b) = String.eqb a b.
  Proof.
    destruct (String.eqb_spec a b) as [->|N]; [apply String.eqb_refl|].
    apply String.eqb_neq. intros E. apply N, Hinj, E.
  Qed.
  Lemma fx s : In s reserved_consts -> rho s = s.
  Proof. intros H. apply Hfix, in_consts, H. Qed.
  Lemma into_reserved s : In (rho s) reserved -> rho s = s.
  Proof. intros H. f_equal. apply Hinj. symmetry. pose proof (Hfix _ H). congruence. Qed.

  Lemma c2p_ren s : concrete_to_python (rho s) = rho (concrete_to_python s).
  Proof.
    destruct (String.string_dec (concrete_to_python s) s) as [Es|Ns].
    - (* [s] is not rewritten; then neither is [rho s], or [rho s] would be reserved, hence [s] *)
      rewrite Es. destruct (String.string_dec (concrete_to_python (rho s)) (rho s)) as [Er|Nr]; [exact Er|].
      destruct (c2p_changes _ Nr) as [Hk _]. pose proof (into_reserved s (in_py_dom _ Hk)) as Hs.
      rewrite Hs in Nr. contradiction.
    - destruct (c2p_changes _ Ns) as [Hk Hv].
      rewrite (Hfix s (in_py_dom _ Hk)). symmetry. apply Hfix, in_py_ran, Hv.
  Qed.

  Lemma funop_of_ren s : funop_of (rho s) = funop_of s.
  Proof.
    assert (His : forall k,
      match lookup k dunder with Some d => String.eqb (rho s) d | None => false end
      = match lookup k dunder with Some d => String.eqb s d | None => false end).
    { intros k. destruct (lookup k dunder) as [d|] eqn:E; [|reflexivity].
      apply eqb_fixed, in_dunder, (in_map snd _ _ (lookup_in _ _ _ E)). }
    unfold funop_of. rewrite !His. reflexivity.
  Qed.

  Lemma is_tuple_literal_ren c : is_tuple_literal (ren c) = is_tuple_literal c.
  Proof. destruct c; reflexivity. Qed.
  Lemma is_branching_ren c :
    match ren c with IfElse _ _ _ | Match _ _ => true | _ => false end
    = match c with IfElse _ _ _ | Match _ _ => true | _ => false end.
  Proof. destruct c; try reflexivity. Qed.
  Lemma skip_return_ren c : skip_return (ren c) = skip_return c.
  Proof. destruct c; try reflexivity. Qed.
  Lemma skip_assign_ren c : skip_assign (ren c) = skip_assign c.
  Proof. unfold skip_assign. rewrite skip_return_ren. destruct c; reflexivity. Qed.
  Lemma is_self_ren c : is_self (ren c) = is_self c.
  Proof. destruct c; try reflexivity. cbn [ren_core is_self]. apply eqb_const. in_list. Qed.
  Lemma is_newtype_ren c : is_newtype (ren c) = is_newtype c.
  Proof. destruct c; try reflexivity. cbn [ren_core is_newtype]. apply eqb_const. in_list. Qed.

  Lemma ren_call f args : is_newtype f = false -> ren (FunctionCall f args) = FunctionCall (ren f) (map ren args).
  Proof. intros H. cbn [ren_core]. rewrite H. destruct args as [|[] r]; reflexivity. Qed.

  Lemma key_eqb_ren a b : key_eqb (ren a) (ren b) = key_eqb a b.
  Proof.
    destruct a; try reflexivity; destruct b; try reflexivity; cbn [ren_core key_eqb]; apply eqb_inj.
  Qed.
End Equivariance.

(** rewrites [rho s] to [s] for a member [s] of [reserved_consts] *)
Ltac fxr s := rewrite (fx s) by in_list.
