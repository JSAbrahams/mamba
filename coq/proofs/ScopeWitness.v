(** Witnesses on which the model of the environment threading fails C07, C08, C09 as stated, the
    statements that hold outside the classes the witnesses stand for, and the positive halves. *)
From Coq Require Import List Bool Arith PeanoNat.
Import ListNotations.
From MambaModel Require Import model.Scope proofs.ScopeProps.

(** class table used by the witnesses: E1 < Exception *)
Definition ct1 : list (cls * list cls) := [(0, []); (1, [0])].

(** D12: a top-level call before the definition of the function is accepted *)
Definition p_d12 : stmts :=
  SCons (SSimple (XExpr (ECall 1 ENil)))
  (SCons (SFun 1 [] [] false (SCons (SSimple XPass) SNil)) SNil).

Theorem C09_sound_refuted :
  exists T p e g t o,
    check_program T restored p = Ok (e, g) /\ ssruns T false [] p t o /\
    ~ all_events fread_ok [[]] [] t.
Proof.
  exists (tabs_of ct1 [] [] p_d12), p_d12. eexists. eexists. eexists. eexists.
  split; [vm_compute; reflexivity|]. split.
  - unfold p_d12. eapply RSCons.
    + apply RSimple. apply RXExpr. apply RCall. apply RENil.
    + eapply RSCons; [apply RFunSkip|apply RSNil].
  - cbn. intros [[] _].
Qed.

(** D13: "defined on all paths" is not enough for the checker *)
Definition p_d13 : stmts :=
  SCons (SIfElse EConst (SCons (SSimple (XDef true [1] (Some EConst))) SNil)
                        (SCons (SSimple (XDef true [1] (Some EConst))) SNil))
  (SCons (SSimple (XExpr (EPrint (ECons (ERead 1) ENil)))) SNil).

Lemma xruns_def_const_inv T infun G m p t o :
  xruns T infun G (XDef m p (Some EConst)) t o -> t = defs m p /\ o = Norm.
Proof.
  intros H. inversion H; subst;
    match goal with X : eruns _ _ _ EConst _ _ |- _ => apply eruns_const_inv in X; destruct X; subst end;
    try discriminate; auto.
Qed.

Lemma print_read_inv T infun G x t o :
  xruns T infun G (XExpr (EPrint (ECons (ERead x) ENil))) t o -> t = [EvRead x].
Proof.
  intros H. inversion H; subst.
  match goal with X : eruns _ _ _ (EPrint _) _ _ |- _ => inversion X; subst end.
  match goal with X : esruns _ _ _ (ECons _ _) _ _ |- _ => inversion X; subst end;
    match goal with X : eruns _ _ _ (ERead _) _ _ |- _ => inversion X; subst end.
  match goal with X : esruns _ _ _ ENil _ _ |- _ => inversion X; subst end. reflexivity.
Qed.

Lemma ssruns_one_inv T infun G s t o : ssruns T infun G (SCons s SNil) t o -> sruns T infun G s t o.
Proof.
  intros H. apply ssruns_cons_inv in H. destruct H as [[-> H]|[t1 [t2 [-> [H1 H2]]]]]; [exact H|].
  apply ssruns_nil_inv in H2. destruct H2 as [-> ->]. rewrite app_nil_r. exact H1.
Qed.

Theorem C09_complete_paths_refuted :
  exists T p,
    (forall t o, ssruns T false [] p t o -> preceded [] t) /\
    check_program T restored p = Rej KUndef.
Proof.
  exists (tabs_of ct1 [] [] p_d13), p_d13. split; [|vm_compute; reflexivity].
  generalize (tabs_of ct1 [] [] p_d13). intros T t o H.
  (* either branch defines 1 and completes, so the if-else completes with a definition of 1 on its trace *)
  assert (I : forall ti oi, sruns T false [] (SIfElse EConst (SCons (SSimple (XDef true [1] (Some EConst))) SNil)
                (SCons (SSimple (XDef true [1] (Some EConst))) SNil)) ti oi ->
                ti = [EvPush; EvDef true 1; EvPop] /\ oi = Norm).
  { intros ti oi HI. apply sruns_ifelse_inv in HI. destruct HI as [[_ HI]|[tc [tt [-> [Hc Hb]]]]].
    - apply eruns_const_inv in HI. destruct HI; discriminate.
    - apply eruns_const_inv in Hc. destruct Hc as [-> _].
      destruct Hb as [Hb|Hb]; apply ssruns_one_inv, sruns_simple_inv, xruns_def_const_inv in Hb;
        destruct Hb as [-> ->]; auto. }
  unfold p_d13 in H. apply ssruns_cons_inv in H. destruct H as [[_ H]|[t1 [t2 [-> [H1 H2]]]]].
  - apply I in H. destruct H; discriminate.
  - apply I in H1. destruct H1 as [-> _].
    apply ssruns_one_inv, sruns_simple_inv, print_read_inv in H2. subst. cbn. auto.
Qed.

(** D11: a field declared fin is assigned through a mutable receiver *)
Definition p_d11 : stmts :=
  SCons (SSimple (XDef true [50] (Some EConst)))
  (SCons (SSimple (XFieldSet 50 2 EConst)) SNil).

Theorem C07_sound_refuted :
  exists T p e g t o,
    check_program T restored p = Ok (e, g) /\ ssruns T false [] p t o /\
    ~ all_events (fldwrite_ok (t_fld T)) [[]] [] t.
Proof.
  exists (tabs_of ct1 [] [(2, false)] p_d11), p_d11. eexists. eexists. eexists. eexists.
  split; [vm_compute; reflexivity|]. split.
  - unfold p_d11. eapply RSCons.
    + apply RSimple. apply RXDef. apply RConst.
    + eapply RSCons; [|apply RSNil]. apply RSimple. apply RXFieldSet. apply RConst.
  - cbn. intros [_ [_ [[_ H] _]]]. apply H. reflexivity.
Qed.

(** D50 ([as_is]): the classes of a handle stay caught for the statements that follow it *)
Definition p_leak_after : stmts :=
  SCons (SFun 1 [] [1] false (SCons (SSimple (XRaise 1)) SNil))
  (SCons (SFun 2 [] [] false
     (SCons (SHandle (XExpr (ECall 1 ENil)) (HCons 1 None (SCons (SSimple XPass) SNil) HNil))
     (SCons (SSimple (XExpr (ECall 1 ENil))) SNil))) SNil).

(** D51 ([as_is]): the arms of a handle are protected by the handle they belong to *)
Definition p_leak_arm : stmts :=
  SCons (SFun 1 [] [1] false (SCons (SSimple (XRaise 1)) SNil))
  (SCons (SFun 2 [] [] false
     (SCons (SHandle (XExpr (ECall 1 ENil)) (HCons 1 None (SCons (SSimple (XRaise 1)) SNil) HNil)) SNil))
   SNil).

(** D52 ([as_is]): a handle at top level leaks into the functions defined after it *)
Definition p_leak_fun : stmts :=
  SCons (SFun 1 [] [1] false (SCons (SSimple (XRaise 1)) SNil))
  (SCons (SHandle (XExpr (ECall 1 ENil)) (HCons 1 None (SCons (SSimple XPass) SNil) HNil))
  (SCons (SFun 2 [] [] false (SCons (SSimple (XRaise 1)) SNil)) SNil)).

(** D19: the declared raises of a method are never checked *)
Definition p_method : stmts :=
  SCons (SSimple (XDef true [50] (Some EConst)))
  (SCons (SFun 2 [] [] false (SCons (SSimple (XExpr (EMCall 50 2 ENil))) SNil)) SNil).

Definition unguarded_in (md : mode) (T : tabs) (p : stmts) : Prop :=
  exists e g t o, check_program T md p = Ok (e, g) /\ ssruns T false [] p t o /\
                  ~ all_events (raise_ok (t_cls T)) [[]] [] t.
(** [unguarded]: under the rule set before the repair c08_handle_restores *)
Definition unguarded (T : tabs) (p : stmts) : Prop := unguarded_in as_is T p.

Lemma no_guard ct c : ~ (exists g : cls, In g [] /\ ancestor ct g c).
Proof. intros [g [[] _]]. Qed.

Lemma unguarded_intro md T p e g t o c :
  check_program T md p = Ok (e, g) -> ssruns T false [] p t o -> In (EvRaise c true []) t ->
  unguarded_in md T p.
Proof.
  intros C R HI. exists e, g, t, o. split; [exact C|]. split; [exact R|]. intros A.
  destruct (all_events_In A HI) as [st [fs H]]. exact (no_guard _ _ H).
Qed.

Theorem C08_leak_after_handle : unguarded (tabs_of ct1 [] [] p_leak_after) p_leak_after.
Proof.
  eapply unguarded_intro; [vm_compute; reflexivity| |].
  - unfold p_leak_after. eapply RSCons; [apply RFunSkip|]. eapply RSCons; [|apply RSNil].
    eapply RFunBody. eapply RSCons.
    + apply RHandleThrough. apply RXExpr. apply RCall. apply RENil.
    + eapply RSConsA. apply RSimple. apply RXExpr. eapply RCallRaise; [apply RENil|].
      cbn. left. reflexivity.
  - cbn. auto 10.
Qed.

Theorem C08_arm_protected_by_own_handle : unguarded (tabs_of ct1 [] [] p_leak_arm) p_leak_arm.
Proof.
  eapply unguarded_intro; [vm_compute; reflexivity| |].
  - unfold p_leak_arm. eapply RSCons; [apply RFunSkip|]. eapply RSCons; [|apply RSNil].
    eapply RFunBody. eapply RSConsA.
    eapply RHandleCatch.
    + apply RXExpr. eapply RCallRaise; [apply RENil|]. cbn. left. reflexivity.
    + eapply RHArmHere. eapply RSConsA. apply RSimple. apply RXRaise.
  - cbn. auto 10.
Qed.

Theorem C08_top_level_handle_leaks_into_functions : unguarded (tabs_of ct1 [] [] p_leak_fun) p_leak_fun.
Proof.
  eapply unguarded_intro; [vm_compute; reflexivity| |].
  - unfold p_leak_fun. eapply RSCons; [apply RFunSkip|]. eapply RSCons.
    + apply RHandleThrough. apply RXExpr. apply RCall. apply RENil.
    + eapply RSCons; [|apply RSNil]. eapply RFunBody. eapply RSConsA. apply RSimple. apply RXRaise.
  - cbn. auto 10.
Qed.

Theorem C08_method_raises_unchecked_in md : m_methods md = false ->
  unguarded_in md (tabs_of ct1 [(2, [1])] [] p_method) p_method.
Proof.
  intros HM. destruct md as [r m]. cbn in HM. subst m.
  eapply unguarded_intro; [destruct r; vm_compute; reflexivity| |].
  - unfold p_method. eapply RSCons.
    + apply RSimple. apply RXDef. apply RConst.
    + eapply RSCons; [|apply RSNil]. eapply RFunBody. eapply RSConsA. apply RSimple. apply RXExpr.
      eapply RMCallRaise; [apply RENil|]. cbn. left. reflexivity.
  - cbn. auto 10.
Qed.

Theorem C08_method_raises_unchecked : unguarded (tabs_of ct1 [(2, [1])] [] p_method) p_method.
Proof. exact (C08_method_raises_unchecked_in as_is eq_refl). Qed.

Theorem C08_sound_refuted : exists T p, unguarded T p.
Proof. eexists. eexists. exact C08_leak_after_handle. Qed.

(** the code as it is: refuted by the method call alone *)
Theorem C08_sound_refuted_restored : exists T p, unguarded_in restored T p.
Proof. eexists. eexists. exact (C08_method_raises_unchecked_in restored eq_refl). Qed.

(** the code as it is rejects the three leaks of [as_is] and accepts the method call *)
Example leaks_rejected_restored :
  verdict_restored ct1 [] [] p_leak_after = VReject KUnhandled /\
  verdict_restored ct1 [] [] p_leak_arm = VReject KUnhandled /\
  verdict_restored ct1 [] [] p_leak_fun = VReject KUnhandled /\
  verdict_restored ct1 [(2, [1])] [] p_method = VAccept.
Proof. repeat split; vm_compute; reflexivity. Qed.

(** all four are rejected by the repaired threading, i.e. they lie in the known class *)
Example known_class_contains_witnesses :
  verdict_strict ct1 [] [] p_leak_after = VReject KUnhandled /\
  verdict_strict ct1 [] [] p_leak_arm = VReject KUnhandled /\
  verdict_strict ct1 [] [] p_leak_fun = VReject KUnhandled /\
  verdict_strict ct1 [(2, [1])] [] p_method = VReject KUnhandled.
Proof. repeat split; vm_compute; reflexivity. Qed.

(** under [as_is] the caught set leaks out of a handle ... *)
Theorem handle_restores_refuted :
  exists T e g x hs e' g',
    check_stmt T as_is e g (SHandle x hs) = Ok (e', g') /\ e_caught e' <> e_caught e.
Proof.
  exists (mkTabs ct1 [] [] []), env0, [], XPass, (HCons 1 None SNil HNil). eexists. eexists.
  split; [vm_compute; reflexivity|]. cbn. discriminate.
Qed.

(** ... every mode with [m_restore] puts it back (for all statements: [check_stmt_guard]) *)
Theorem handle_restores_strict T md e g x hs e' g' :
  m_restore md = true ->
  check_stmt T md e g (SHandle x hs) = Ok (e', g') ->
  e_caught e' = e_caught e /\ e_in_fun e' = e_in_fun e.
Proof.
  intros HM C. destruct (@check_stmt_guard T md (SHandle x hs) e g e' g' HM C) as [A B]. split; congruence.
Qed.

(** C09: programs whose top-level calls come after the definitions (not D12) *)
Theorem C09_sound_outside_known T strict p e g t o :
  ord_stmts [] p = true ->
  check_program T strict p = Ok (e, g) -> ssruns T false [] p t o ->
  all_events read_ok [[]] [] t /\ preceded [] t /\ all_events fread_ok [[]] [] t.
Proof.
  intros HO C R. destruct (C09_sound_vars strict C R) as [A B].
  split; [exact A|]. split; [exact B|]. eapply ordered_sound; eassumption.
Qed.

(** C07: programs that do not assign to a fin field (not D11) *)
Theorem C07_sound_outside_known T strict p e g t o :
  nf_stmts (t_fld T) p = true ->
  check_program T strict p = Ok (e, g) -> ssruns T false [] p t o ->
  all_events write_ok [[]] [] t /\ all_events (fldwrite_ok (t_fld T)) [[]] [] t.
Proof.
  intros HN C R. destruct (C07_sound_vars strict C R) as [A B]. split; [exact A|].
  pose proof (proj2 (all_events_const _ [[]] [] t) (nofin_sound (t_fld T) R HN)) as F.
  eapply all_events_impl; [|exact (proj2 (all_events_and recv_ok _ _ _ t) (conj B F))].
  intros s f ev; destruct ev; cbn; tauto.
Qed.

(** C08, stated against the rule set before the repair ([as_is]): programs that the repaired threading
    accepts as well (not D19, D50, D51, D52: [repaired] differs from [as_is] in exactly three places:
    the caught set is restored after a handle and for its arms, a function body starts from its own
    declared raises, the declared raises of a method are checked).  For the code as it is
    ([restored]) see [ScopeModes.C08_sound_restored]. *)
Theorem C08_sound_outside_known T p e g e2 g2 t o :
  check_program T repaired p = Ok (e2, g2) ->
  check_program T as_is p = Ok (e, g) -> ssruns T false [] p t o ->
  all_events (raise_ok (t_cls T)) [[]] [] t.
Proof. intros CS _ R. eapply C08_sound_strict; eassumption. Qed.

(** C07, positive half *)
Theorem mutable_reassign_ok T strict e g x rhs :
  WF e -> lookup e x = Some true -> check_expr T strict e g rhs = None ->
  check_simple T strict e g (XAssign [x] rhs) = Ok (e, g) /\
  check_simple T strict e g (XAug x rhs) = Ok (e, g).
Proof.
  intros W L C. assert (GV : get_var e g x = Some true) by (rewrite get_var_lookup; assumption).
  split; cbn [check_simple check_iden_mut check_reads check_expr]; rewrite GV; rewrite C; reflexivity.
Qed.

(** negative half; [e_in_class e = false] because inside a class an undefined [self] is let through by
    [check_iden_mut] *)
Theorem fin_or_undefined_reassign_rejected T md e g x rhs :
  WF e -> e_in_class e = false ->
  (lookup e x = Some false -> check_simple T md e g (XAssign [x] rhs) = Rej KImmut /\
                              check_simple T md e g (XAug x rhs) = Rej KImmut) /\
  (lookup e x = None -> check_simple T md e g (XAssign [x] rhs) = Rej KUndef /\
                        check_simple T md e g (XAug x rhs) = Rej KUndef).
Proof.
  intros W NC. split; intros L;
    assert (GV := get_var_lookup g x W); rewrite L in GV;
    split; cbn [check_simple check_iden_mut]; rewrite GV; try rewrite NC;
    try rewrite Bool.andb_false_r; reflexivity.
Qed.

(** C09: a defined name can be read; the newest definition is the one that is seen; a definition
    stays visible across every statement that follows it in its block *)
Theorem read_defined_ok T md e g x :
  WF e -> lookup e x <> None -> check_expr T md e g (ERead x) = None.
Proof.
  intros W L. cbn [check_expr]. rewrite get_var_lookup by exact W.
  destruct (lookup e x); [reflexivity|congruence].
Qed.

Theorem definition_visible T md e g m p init e1 g1 x :
  check_simple T md e g (XDef m p init) = Ok (e1, g1) ->
  lookup e1 x = if mem x p then Some m else lookup e x.
Proof.
  intros C. apply check_simple_frame in C. change e1 with (fst (e1, g1)). rewrite <- C.
  apply (define_all_get lookup lookup_define).
Qed.
Arguments definition_visible [T md e g m p init e1 g1] x _.

Lemma simple_visible T md e g s e' g' x :
  check_simple T md e g s = Ok (e', g') -> lookup e x <> None -> lookup e' x <> None.
Proof.
  intros C L. pose proof (check_simple_frame C) as F.
  destruct s; try (rewrite <- (same_scope_lookup x (proj1 F)); exact L).
  rewrite (definition_visible x C). destruct (mem x p); [discriminate|exact L].
Qed.
Arguments simple_visible [T md e g s e' g'] x _ _.

Theorem visible_preserved T :
  (forall s md e g e' g' x, check_stmt T md e g s = Ok (e', g') ->
     lookup e x <> None -> lookup e' x <> None) /\
  (forall ss md e g e' g' x, check_stmts T md e g ss = Ok (e', g') ->
     lookup e x <> None -> lookup e' x <> None).
Proof.
  assert (S : forall s md e g e' g' x, check_stmt T md e g s = Ok (e', g') ->
     lookup e x <> None -> lookup e' x <> None).
  { intros s md e g e' g' x C L. destruct (compound s) eqn:K.
    { rewrite <- (same_scope_lookup x (proj1 (compound_frame C K))). exact L. }
    destruct s; try discriminate K; [eapply simple_visible; eassumption|].
    chk C. injection C as <- <-. apply (simple_visible x E) in L.
    destruct (m_restore md), ce0; exact L. }
  split; [exact S|].
  induction ss as [|s ss IH]; intros md e g e' g' x C L; chk C.
  - injection C as <- <-. exact L.
  - eapply IH; [exact C|]. eapply S; eassumption.
Qed.

(** the classes in the raise lists of all function definitions inside a statement, at every nesting
    depth ([only_exceptions_declared]: each descends from Exception) *)
Fixpoint declared_stmt (s : stmt) : list cls :=
  match s with
  | SSimple _ => []
  | SHandle _ hs => declared_harms hs
  | SIf _ t => declared_stmts t
  | SIfElse _ t el => declared_stmts t ++ declared_stmts el
  | SMatch _ a => declared_arms a
  | SWhile _ b => declared_stmts b
  | SFor _ _ b => declared_stmts b
  | SFun _ _ rs _ b => rs ++ declared_stmts b
  end
with declared_stmts (ss : stmts) : list cls :=
  match ss with SNil => [] | SCons s r => declared_stmt s ++ declared_stmts r end
with declared_arms (a : arms) : list cls :=
  match a with ANil => [] | ACons _ body rest => declared_stmts body ++ declared_arms rest end
with declared_harms (hs : harms) : list cls :=
  match hs with HNil => [] | HCons _ _ body rest => declared_stmts body ++ declared_harms rest end.

Lemma check_declared_sound T rs :
  check_declared T rs = None -> Forall (fun c => ancestor (t_cls T) EXC c) rs.
Proof.
  induction rs as [|c r IH]; cbn [check_declared]; [constructor|].
  destruct (has_parent (fuel_of T) (t_cls T) c EXC) eqn:H; try discriminate.
  intros C. constructor; [eapply has_parent_sound; exact H|apply IH; exact C].
Qed.

Theorem only_exceptions_declared T :
  (forall s strict e g e' g', check_stmt T strict e g s = Ok (e', g') ->
     Forall (fun c => ancestor (t_cls T) EXC c) (declared_stmt s)) /\
  (forall ss strict e g e' g', check_stmts T strict e g ss = Ok (e', g') ->
     Forall (fun c => ancestor (t_cls T) EXC c) (declared_stmts ss)).
Proof.
  assert (X :
    (forall s md e g e' g', check_stmt T md e g s = Ok (e', g') ->
       Forall (fun c => ancestor (t_cls T) EXC c) (declared_stmt s)) /\
    (forall ss md e g e' g', check_stmts T md e g ss = Ok (e', g') ->
       Forall (fun c => ancestor (t_cls T) EXC c) (declared_stmts ss)) /\
    (forall a md e g u g', check_arms T md e g a = Ok (u, g') ->
       Forall (fun c => ancestor (t_cls T) EXC c) (declared_arms a)) /\
    (forall hs md e g u g', check_harms T md e g hs = Ok (u, g') ->
       Forall (fun c => ancestor (t_cls T) EXC c) (declared_harms hs))).
  { (* structural, a function's own declared raises by [check_declared_sound] *)
    apply syntax_ind; cbn [declared_stmt declared_stmts declared_arms declared_harms]; intros;
      try (constructor; fail); match goal with C : _ = Ok _ |- _ => chk C end;
      repeat (apply Forall_app; split); eauto using check_declared_sound. }
  split; apply X.
Qed.

(** non-vacuity: a program with shadowing in a branch, a loop, a function with declared raises, a
    guarded call and a reassignment is accepted *)
Definition p_example : stmts :=
  SCons (SFun 1 [(true, 2)] [1] true
           (SCons (SIf (ERead 2) (SCons (SSimple (XRaise 1)) SNil))
           (SCons (SSimple (XReturn (Some (ERead 2)))) SNil)))
  (SCons (SSimple (XDef false [1] (Some EConst)))
  (SCons (SIfElse (ERead 1)
           (SCons (SSimple (XDef true [1] (Some (ERead 1)))) (SCons (SSimple (XAug 1 EConst)) SNil))
           (SCons (SSimple XPass) SNil))
  (SCons (SHandle (XDef true [3] (Some (ECall 1 (ECons (ERead 1) ENil))))
           (HCons 0 (Some (true, 90)) (SCons (SSimple (XExpr (EPrint (ECons (ERead 90) ENil)))) SNil) HNil))
  (SCons (SFor [2] (ERead 3) (SCons (SSimple (XAssign [3] (EBin (ERead 3) (ERead 2)))) SNil))
   SNil)))).

Example example_accepted :
  verdict_program ct1 [] [] p_example = VAccept /\ verdict_strict ct1 [] [] p_example = VAccept /\
  ord_stmts [] p_example = true /\ nf_stmts [] p_example = true.
Proof. repeat split; vm_compute; reflexivity. Qed.
