(** * C16: what a [Core] tree needs; the pure helpers of the conversion preserve coverage *)
From Coq Require Import List String Bool Arith Lia.
From MambaModel Require Import model.Core gen.Names model.Convert proofs.ConvertProps proofs.ImportsProps.
Import ListNotations.
Local Open Scope string_scope.
Local Open Scope list_scope.

(** the type spellings the generator takes from [typing] *)
Definition typing_support : list string := ["Optional"; n_union_py; n_tuple_py; n_callable_py; n_any_py].

Definition type_need (lit : string) : list need :=
  if existsb (String.eqb lit) typing_support then [FromImport "typing" lit] else [].
Definition parent_need (p : core) : list need :=
  match p with Id s => if String.eqb s "ABC" then [FromImport "abc" "ABC"] else [] | _ => [] end.
Definition call_need (f : core) : list need :=
  match f with Id s => if String.eqb s "NewType" then [FromImport "typing" "NewType"] else [] | _ => [] end.
Definition dec_need (d : string) : list need :=
  if String.eqb d "abstractmethod" then [FromImport "abc" "abstractmethod"] else [].
Definition un_need (o : cun) : list need := match o with CuSqrt => [PlainImport "math"] | _ => [] end.
Definition oneeds {X} (f : X -> list need) (o : option X) : list need :=
  match o with Some x => f x | None => [] end.

Fixpoint needs (c : core) : list need :=
  match c with
  | Import f im al => oneeds needs f ++ flat_map needs im ++ flat_map needs al
  | ClassDef name ps body => flat_map parent_need ps ++ needs name ++ flat_map needs ps ++ needs body
  | FunctionCall f args => call_need f ++ needs f ++ flat_map needs args
  | PropertyCall o p => needs o ++ needs p
  | Id _ => []
  | Type_ lit gs => type_need lit ++ flat_map needs gs
  | ExpressionType e t => needs e ++ needs t
  | Assign l r _ => needs l ++ needs r
  | VarDef v t e => needs v ++ oneeds needs t ++ oneeds needs e
  | FunDefOp _ arg t b => flat_map needs arg ++ oneeds needs t ++ needs b
  | FunDef dec _ arg t b => flat_map dec_need dec ++ flat_map needs arg ++ oneeds needs t ++ needs b
  | FunArg _ v t d => needs v ++ oneeds needs t ++ oneeds needs d
  | AnonFun args b => flat_map needs args ++ needs b
  | Block sts => flat_map needs sts
  | Float _ | Int _ | ENum _ _ | DocStr _ | Str _ | FStr _ | Bool _ => []
  | Tuple es | TupleLiteral es | Set_ es | List_ es => flat_map needs es
  | DictComprehension f t col conds => needs f ++ needs t ++ needs col ++ flat_map needs conds
  | Comprehension e col conds => needs e ++ needs col ++ flat_map needs conds
  | Dictionary els => flat_map (fun kv => needs (fst kv) ++ needs (snd kv)) els
  | Index i r => needs i ++ needs r
  | Bin _ l r => needs l ++ needs r
  | Un o e => un_need o ++ needs e
  | For e col b => needs e ++ needs col ++ needs b
  | If c t => needs c ++ needs t
  | IfElse c t e => needs c ++ needs t ++ needs e
  | Match e cases => needs e ++ flat_map needs cases
  | Case e b => needs e ++ needs b
  | Ternary c t e => needs c ++ needs t ++ needs e
  | KeyValue k v => needs k ++ needs v
  | While c b => needs c ++ needs b
  | Break | Continue | UnderScore | Pass | None_ | Empty => []
  | TryExcept s a ex => oneeds needs s ++ needs a ++ flat_map needs ex
  | ExceptId i cl b => needs i ++ needs cl ++ needs b
  | Except cl b => needs cl ++ needs b
  | With r e => needs r ++ needs e
  | WithAs r a e => needs r ++ needs a ++ needs e
  end.

Definition covers (i : imports) (L : list need) : Prop := forall n, In n L -> provides i n.

Lemma covers_mono i j L : ile i j -> typing_sep i -> covers i L -> covers j L.
Proof. intros H Hs Hc n Hn. apply H; [exact Hs | auto]. Qed.
Lemma covers_incl i L L' : incl L' L -> covers i L -> covers i L'.
Proof. intros H Hc n Hn. auto. Qed.
Lemma covers_app i L1 L2 : covers i (L1 ++ L2) <-> covers i L1 /\ covers i L2.
Proof.
  unfold covers. split.
  - intros H. split; intros n Hn; apply H; apply in_or_app; [left | right]; exact Hn.
  - intros [H1 H2] n Hn. apply in_app_or in Hn. destruct Hn; auto.
Qed.
Lemma covers_nil i : covers i [].
Proof. intros n []. Qed.

Lemma flat_map_incl {X Y} (f : X -> list Y) l L : (forall x, In x l -> incl (f x) L) -> incl (flat_map f l) L.
Proof.
  intros H y Hy. apply in_flat_map in Hy. destruct Hy as [x [Hx Hy]]. exact (H x Hx y Hy).
Qed.
Lemma incl_flat_map {X Y} (f : X -> list Y) l x : In x l -> incl (f x) (flat_map f l).
Proof. intros Hx y Hy. apply in_flat_map. exists x. split; assumption. Qed.

(** [auto with incl] finds the summand of a concatenation that a list is included in *)
Create HintDb incl.
#[export] Hint Resolve incl_refl incl_appl incl_appr incl_app incl_nil_l incl_flat_map : incl.

(** a parent of a class must not be the call of a type rendered [ABC] (its name would be captured) *)
Definition head_ok (c : core) : Prop :=
  match c with FunctionCall (Type_ lit _) _ => lit <> "ABC" | _ => True end.

(** A type name is rendered through [concrete_to_python] without registering an import unless
    it is the tuple, callable or any type; it must therefore not be rendered as one of the
    [typing] spellings (with the generated table: it must not be [Optional] or [Union]). *)
Definition type_name_ok (name : string) : bool :=
  if String.eqb name n_tuple_m || String.eqb name n_callable_m then true
  else if existsb (String.eqb (concrete_to_python name)) typing_support
       then String.eqb name n_any_m && String.eqb (concrete_to_python name) n_any_py
       else true.
(** a called type or a parent with arguments must not be rendered [ABC] *)
Definition abc_ok (name : string) : bool := negb (String.eqb (concrete_to_python name) "ABC").

Fixpoint nm_ok (n : nm) : bool := match n with NM ts => forallb tn_ok ts end
with tn_ok (t : tn) : bool := match t with TN _ name gs => type_name_ok name && forallb nm_ok gs end.
Definition onm_ok (o : option nm) : bool := match o with Some n => nm_ok n | None => true end.

Fixpoint reserved_free (a : ast) : bool :=
  match a with
  | A ty n =>
      let ro (o : option ast) : bool := match o with Some x => reserved_free x | None => true end in
      onm_ok ty &&
      match n with
      | NBin _ l r => reserved_free l && reserved_free r
      | NUn _ e => reserved_free e
      | NTuple es | NList es | NSet es | NBlock es => forallb reserved_free es
      | NIndex i r => reserved_free i && reserved_free r
      | NRange f t _ s | NSlice f t _ s => reserved_free f && reserved_free t && ro s
      | NCall name gs args => tn_ok (TN false name gs) && abc_ok name && forallb reserved_free args
      | NProp i p => reserved_free i && reserved_free p
      | NAnonFun args b => forallb reserved_free args && reserved_free b
      | NExprType e ety => reserved_free e && onm_ok ety
      | NVarDef v vty e => reserved_free v && onm_ok vty && ro e
      | NReassign l r _ => reserved_free l && reserved_free r
      | NFunDef i args ret b => reserved_free i && forallb reserved_free args && onm_ok ret && ro b
      | NFunArg _ v aty d => reserved_free v && onm_ok aty && ro d
      | NReturn e | NRaise e => reserved_free e
      | NIfElse c t e => reserved_free c && reserved_free t && ro e
      | NMatch c cs | NHandle c cs => reserved_free c && forallb reserved_free cs
      | NCase c b | NWhile c b => reserved_free c && reserved_free b
      | NFor e c b => reserved_free e && reserved_free c && reserved_free b
      | NImport f i al => ro f && forallb reserved_free i && forallb reserved_free al
      | NClass name gs args ps b =>
          tn_ok (TN false name gs) && forallb reserved_free args && forallb reserved_free ps && ro b
      | NParent name gs args =>
          tn_ok (TN false name gs) && (match args with [] => true | _ => abc_ok name end)
          && forallb reserved_free args
      | NTypeDef name gs isa b _ => tn_ok (TN false name gs) && onm_ok isa && ro b
      | NTypeAlias _ _ isa => nm_ok isa
      | NDict es => forallb (fun kv => reserved_free (fst kv) && reserved_free (snd kv)) es
      | NListBuilder i cs | NSetBuilder i cs => reserved_free i && forallb reserved_free cs
      | NDictBuilder f t cs => reserved_free f && reserved_free t && forallb reserved_free cs
      | NWith r al b => reserved_free r && ro al && reserved_free b
      | _ => true
      end
  end.

Definition rfo (o : option ast) : bool := match o with Some x => reserved_free x | None => true end.

Lemma rf_unfold ty n :
  reserved_free (A ty n) =
  onm_ok ty &&
  match n with
  | NBin _ l r => reserved_free l && reserved_free r
  | NUn _ e => reserved_free e
  | NTuple es | NList es | NSet es | NBlock es => forallb reserved_free es
  | NIndex i r => reserved_free i && reserved_free r
  | NRange f t _ s | NSlice f t _ s => reserved_free f && reserved_free t && rfo s
  | NCall name gs args => tn_ok (TN false name gs) && abc_ok name && forallb reserved_free args
  | NProp i p => reserved_free i && reserved_free p
  | NAnonFun args b => forallb reserved_free args && reserved_free b
  | NExprType e ety => reserved_free e && onm_ok ety
  | NVarDef v vty e => reserved_free v && onm_ok vty && rfo e
  | NReassign l r _ => reserved_free l && reserved_free r
  | NFunDef i args ret b => reserved_free i && forallb reserved_free args && onm_ok ret && rfo b
  | NFunArg _ v aty d => reserved_free v && onm_ok aty && rfo d
  | NReturn e | NRaise e => reserved_free e
  | NIfElse c t e => reserved_free c && reserved_free t && rfo e
  | NMatch c cs | NHandle c cs => reserved_free c && forallb reserved_free cs
  | NCase c b | NWhile c b => reserved_free c && reserved_free b
  | NFor e c b => reserved_free e && reserved_free c && reserved_free b
  | NImport f i al => rfo f && forallb reserved_free i && forallb reserved_free al
  | NClass name gs args ps b =>
      tn_ok (TN false name gs) && forallb reserved_free args && forallb reserved_free ps && rfo b
  | NParent name gs args =>
      tn_ok (TN false name gs) && (match args with [] => true | _ => abc_ok name end)
      && forallb reserved_free args
  | NTypeDef name gs isa b _ => tn_ok (TN false name gs) && onm_ok isa && rfo b
  | NTypeAlias _ _ isa => nm_ok isa
  | NDict es => forallb (fun kv => reserved_free (fst kv) && reserved_free (snd kv)) es
  | NListBuilder i cs | NSetBuilder i cs => reserved_free i && forallb reserved_free cs
  | NDictBuilder f t cs => reserved_free f && reserved_free t && forallb reserved_free cs
  | NWith r al b => reserved_free r && rfo al && reserved_free b
  | _ => true
  end.
Proof. destruct n; reflexivity. Qed.

Definition render_covers {X} (f : imports -> X * imports) (nd : X -> list need) (V : X -> Prop) : Prop :=
  forall i, typing_sep i ->
    ile i (snd (f i)) /\ covers (snd (f i)) (nd (fst (f i))) /\ V (fst (f i)).

Definition type_or_empty (c : core) : Prop := match c with Type_ _ _ | Empty => True | _ => False end.
Definition type_named (name : string) (c : core) : Prop :=
  exists lit gs, c = Type_ lit gs /\ (lit = "ABC" -> concrete_to_python name = "ABC").

Definition tneed (s : string) : need := FromImport "typing" s.

Lemma type_need_any : type_need n_any_py = [FromImport "typing" n_any_py].
Proof. reflexivity. Qed.

Lemma adds_ile l : forall i, ile i (adds l i).
Proof.
  induction l as [|s l IH]; intros i; [apply ile_refl|].
  change (adds (s :: l) i) with (adds l (add_from_import "typing" s i)).
  eapply ile_trans; [apply add_from_import_ile | apply IH].
Qed.

Lemma adds_covers l : forall i, typing_sep i -> covers (adds l i) (map tneed l).
Proof.
  induction l as [|x l IH]; intros i Hs; [apply covers_nil|].
  change (adds (x :: l) i) with (adds l (add_from_import "typing" x i)).
  pose proof (add_from_import_sep "typing" x i Hs) as Hs'.
  intros n [<-|Hn]; [apply (adds_ile l _ Hs'), add_from_import_provides | exact (IH _ Hs' n Hn)].
Qed.

Lemma Forall_ok {X} (ok : X -> bool) (P : X -> Prop) l :
  Forall (fun x => ok x = true -> P x) l -> forallb ok l = true -> Forall P l.
Proof.
  induction 1 as [|x l Hx _ IH]; intros H; [constructor|]. cbn [forallb] in H. apply andb_prop in H.
  destruct H as [H1 H2]. constructor; auto.
Qed.

Lemma needs_rendered {X} (g : X -> core) (h : X -> list string) l :
  Forall (fun x => incl (needs (g x)) (map tneed (h x))) l ->
  incl (flat_map needs (map g l)) (map tneed (List.concat (map h l))).
Proof.
  induction 1 as [|x l Hx _ IH]; [apply incl_refl|]. cbn [map flat_map List.concat]. rewrite map_app.
  auto with incl.
Qed.

Lemma incl_cons_cons {X} (x : X) A B : incl A B -> incl (x :: A) (x :: B).
Proof. intros H. apply incl_cons; [left; reflexivity | apply incl_tl, H]. Qed.

Lemma needs_type s gs : In s typing_support -> needs (Type_ s gs) = tneed s :: flat_map needs gs.
Proof. intros H. repeat (destruct H as [<-|H]; [reflexivity|]). destruct H. Qed.

Lemma variant_needs name gs :
  type_name_ok name = true -> Forall (fun g => incl (needs (nm_core g)) (map tneed (nm_adds g))) gs ->
  incl (needs (variant_core name (map nm_core gs))) (map tneed (variant_adds name (map nm_adds gs))).
Proof.
  intros Hok H. pose proof (needs_rendered _ _ _ H) as Hgs.
  unfold variant_core, variant_adds, type_name_ok in *. destruct (String.eqb name n_tuple_m).
  { rewrite needs_type, map_cons by in_list. apply incl_cons_cons, Hgs. }
  destruct (String.eqb name n_callable_m); cbn [orb] in Hok.
  { rewrite needs_type, map_cons by in_list. apply incl_cons_cons. destruct gs as [|a [|r rest]]; [intros q []| |].
    - cbn [map firstn List.concat flat_map app] in *. exact Hgs.
    - inversion H as [|? ? Ha Hr]; subst. inversion Hr as [|? ? Hr1 _]; subst.
      rewrite !map_cons. cbn [firstn List.concat flat_map app]. rewrite !app_nil_r, map_app.
      auto with incl. }
  cbn [needs]. rewrite map_app. apply incl_app; [apply incl_appl | apply incl_appr, Hgs].
  unfold type_need. destruct (existsb (String.eqb (concrete_to_python name)) typing_support); [|intros q []].
  apply andb_prop in Hok. destruct Hok as [Ha Hb]. apply String.eqb_eq in Hb. rewrite Ha, Hb. apply incl_refl.
Qed.

Lemma nm_core_needs : forall n, nm_ok n = true -> incl (needs (nm_core n)) (map tneed (nm_adds n)).
Proof.
  apply (nm_ind2 (fun n => nm_ok n = true -> incl (needs (nm_core n)) (map tneed (nm_adds n)))
                 (fun t => tn_ok t = true -> incl (needs (tn_core t)) (map tneed (tn_adds t)))).
  - intros ms H Hok. cbn [nm_ok] in Hok. pose proof (Forall_ok _ _ _ H Hok) as HF.
    destruct ms as [|t [|t2 r]]; [intros q [] | inversion HF; assumption |].
    change (nm_core (NM (t :: t2 :: r))) with (Type_ n_union_py (map tn_core (t :: t2 :: r))).
    change (nm_adds (NM (t :: t2 :: r))) with (n_union_py :: List.concat (map tn_adds (t :: t2 :: r))).
    rewrite needs_type, map_cons by in_list. apply incl_cons_cons, (needs_rendered tn_core tn_adds _ HF).
  - intros b name gs H Hok. cbn [tn_ok] in Hok. apply andb_prop in Hok. destruct Hok as [Hname Hgs].
    pose proof (variant_needs name gs Hname (Forall_ok _ _ _ H Hgs)) as Hv.
    cbn [tn_core tn_core_with tn_adds tn_adds_with]. destruct b; [|exact Hv].
    rewrite needs_type by in_list. cbn [flat_map app]. rewrite app_nil_r, map_cons. apply incl_cons_cons, Hv.
Qed.

Lemma nm_core_shape n : type_or_empty (nm_core n).
Proof.
  destruct n as [[|t [|t2 r]]]; try exact I. destruct (tn_core_type t) as (lit & gs & E).
  change (nm_core (NM [t])) with (tn_core t). rewrite E. exact I.
Qed.
Lemma tn_core_shape name gs : type_named name (tn_core (TN false name gs)).
Proof.
  cbn [tn_core tn_core_with]. unfold variant_core.
  destruct (String.eqb name n_tuple_m); [eexists; eexists; split; [reflexivity | discriminate]|].
  destruct (String.eqb name n_callable_m); eexists; eexists; split; try reflexivity; [discriminate | auto].
Qed.

Lemma nm_cov n : nm_ok n = true -> render_covers (nm_to_py n) needs type_or_empty.
Proof.
  intros Hok i Hs. rewrite nm_to_py_nf. cbn [fst snd]. split; [apply adds_ile|]. split; [|apply nm_core_shape].
  eapply covers_incl; [apply nm_core_needs, Hok | apply adds_covers, Hs].
Qed.
Lemma tn_cov name gs : tn_ok (TN false name gs) = true -> render_covers (tn_to_py (TN false name gs)) needs (type_named name).
Proof.
  intros Hok i Hs. rewrite tn_to_py_nf. cbn [fst snd]. split; [apply adds_ile|]. split; [|apply tn_core_shape].
  assert (Hn : nm_ok (NM [TN false name gs]) = true) by (cbn [nm_ok forallb]; rewrite Hok; reflexivity).
  eapply covers_incl; [apply (nm_core_needs _ Hn) | apply adds_covers, Hs].
Qed.

Lemma in_app_mono {X} (n : X) A A' B B' (Q : Prop) :
  (In n A -> In n A' \/ Q) -> (In n B -> In n B' \/ Q) -> In n (A ++ B) -> In n (A' ++ B') \/ Q.
Proof. rewrite !in_app_iff. tauto. Qed.

(** One need [n] at a time, with [Q] for "[n] is among the needs allowed on top": the condition on the leaves
    is a [Forall], which splits along [++] as the needs do. *)
Section needs_tmap.
  Variables (f : core -> core) (e : list core) (n : need) (Q : Prop).
  Hypothesis He : In n (flat_map needs e) -> Q.
  Let R (x : core) : Prop := In n (needs (f x)) -> In n (needs x) \/ Q.
  Let P (h : core -> core) (c : core) : Prop := Forall R (tleaves c) -> In n (needs (h c)) -> In n (needs c) \/ Q.

  Lemma needs_map_in h l : Forall (P h) l ->
    Forall R (flat_map tleaves l) -> In n (flat_map needs (map h l)) -> In n (flat_map needs l) \/ Q.
  Proof.
    unfold P. induction 1 as [|y l Hy _ IH]; cbn [map flat_map]; [auto|].
    intros HR. apply Forall_app in HR. destruct HR as [H1 H2]. apply in_app_mono; auto.
  Qed.

  Lemma needs_tmap_in : forall c, P (tmap f e) c.
  Proof.
    apply tail_ind; unfold P.
    - intros c Hc. rewrite tmap_leaf by exact Hc.
      replace (tleaves c) with [c] by (destruct c; try discriminate Hc; reflexivity).
      intros HR. exact (Forall_inv HR).
    - intros l HF. destruct l as [|x l]; [cbn [tmap needs]; auto|]. rewrite tmap_block.
      change (tleaves (Block (x :: l))) with (last_leaves tleaves (x :: l)). cbn [needs].
      induction HF as [|y r Hy _ IH]; [intros _ []|]. cbn [replace_last last_leaves].
      destruct r as [|z r]; [cbn [flat_map]; rewrite !app_nil_r; exact Hy|].
      intros HR. apply (in_app_mono n (needs y) (needs y)); auto.
    - intros c t e0 Ht He0 HR. apply Forall_app in HR. destruct HR as [H1 H2]. cbn [tmap needs].
      apply in_app_mono; [auto|]. apply in_app_mono; auto.
    - intros x cs HF HR. cbn [tmap needs]. apply in_app_mono; [auto|]. apply needs_map_in; assumption.
    - intros x b Hb HR. cbn [tmap needs]. apply in_app_mono; auto.
    - intros s a ex Ha HF HR. apply Forall_app in HR. destruct HR as [H1 H2]. cbn [tmap needs].
      apply in_app_mono; [auto|]. apply in_app_mono; [auto|]. apply needs_map_in; assumption.
    - intros i cl b Hb HR. cbn [tmap needs]. apply in_app_mono; [auto|]. apply in_app_mono; auto.
    - intros cl b Hb HR. cbn [tmap needs]. apply in_app_mono; auto.
  Qed.
End needs_tmap.

Lemma needs_tmap f e L : incl (flat_map needs e) L ->
  forall c, (forall x, In x (tleaves c) -> incl (needs (f x)) (needs x ++ L)) ->
            incl (needs (tmap f e c)) (needs c ++ L).
Proof.
  intros He c H n Hn. apply in_or_app, (needs_tmap_in f e n (In n L) (He n) c); [|exact Hn].
  apply Forall_forall. intros x Hx Hn'. apply in_app_or, (H x Hx n Hn').
Qed.

Lemma head_tmap f e c : (forall x, head_ok x -> head_ok (f x)) -> head_ok c -> head_ok (tmap f e c).
Proof.
  intros Hf H. destruct c; try exact I; try (apply Hf, H).
  match goal with |- context [Block ?l] => destruct l end; exact I.
Qed.

Lemma needs_append_ret c : incl (needs (append_ret c)) (needs c).
Proof.
  rewrite append_ret_tmap. rewrite <- (app_nil_r (needs c)). apply needs_tmap; [apply incl_refl|].
  intros x _. unfold ret_leaf. rewrite app_nil_r. destruct (skip_return x); apply incl_refl.
Qed.
Lemma head_append_ret c : head_ok c -> head_ok (append_ret c).
Proof. rewrite append_ret_tmap. apply head_tmap. intros x H. unfold ret_leaf. destruct (skip_return x); [exact H | exact I]. Qed.

Lemma asg_adds_in n x ls : In x ls -> skip_assign x = false -> incl (onm_adds n) (asg_adds n ls).
Proof. intros Hx Hs q Hq. apply in_flat_map. exists x. rewrite Hs. split; assumption. Qed.
Lemma asg_adds_incl n ls : incl (asg_adds n ls) (onm_adds n).
Proof. intros q Hq. apply in_flat_map in Hq. destruct Hq as (x & _ & Hq). destruct (skip_assign x); [destruct Hq | exact Hq]. Qed.

Lemma needs_asg t n c : onm_ok n = true ->
  incl (needs (tmap (asg_leaf t (onm_core n)) [] c)) (needs c ++ needs t ++ map tneed (asg_adds n (tleaves c))).
Proof.
  intros Hn. apply needs_tmap; [intros q []|]. intros x Hx. unfold asg_leaf.
  destruct (skip_assign x) eqn:Hs; [auto with incl|]. cbn [needs oneeds].
  apply incl_app; [auto with incl|]. apply incl_app; [|auto with incl].
  apply incl_appr, incl_appr. destruct n as [n|]; [|intros q []]. cbn [onm_core option_map oneeds].
  eapply incl_tran; [apply nm_core_needs, Hn|]. apply incl_map. exact (asg_adds_in (Some n) x _ Hx Hs).
Qed.

Definition fcov (L : list need) (f : core -> imports -> core * imports) (y : core) : Prop :=
  forall i, typing_sep i -> covers i L ->
    ile i (snd (f y i)) /\ covers (snd (f y i)) (needs (fst (f y i))).

Lemma append_assign_cov L t n c :
  onm_ok n = true -> incl (needs t) L -> incl (needs c) L -> fcov L (append_assign t n) c.
Proof.
  intros Hn Ht Hc i Hs Hi. rewrite append_assign_nf. cbn [fst snd]. split; [apply adds_ile|].
  eapply covers_incl; [apply needs_asg, Hn|].
  assert (Hm : covers (adds (asg_adds n (tleaves c)) i) L) by (eapply covers_mono; [apply adds_ile | exact Hs | exact Hi]).
  apply covers_app. split; [eapply covers_incl; eassumption|].
  apply covers_app. split; [eapply covers_incl; eassumption | apply adds_covers, Hs].
Qed.

Lemma append_assign_head t n c i : head_ok c -> head_ok (fst (append_assign t n c i)).
Proof.
  rewrite append_assign_nf. apply head_tmap. intros x H. unfold asg_leaf. destruct (skip_assign x); [exact H | exact I].
Qed.
