(** * C17 - the API of the emitted module mirrors the definitions of the Mamba file *)
From Coq Require Import List String Bool Arith Lia Ascii.
From MambaModel Require Import model.Core gen.Names model.Convert model.Api
  proofs.ConvUnfold proofs.ConvertProps proofs.ApiBase proofs.ApiClass.
Import ListNotations.
Local Open Scope string_scope.
Local Open Scope list_scope.

Lemma funop_name_not op : funop_name op <> "@" /\ funop_name op <> n_init.
Proof. destruct op; split; discriminate. Qed.

Lemma py_fname_not_at s : is_ident s = true -> py_fname s <> "@".
Proof.
  intros Hi. unfold py_fname. cbv zeta. destruct (ctp_value s) as [E | (H1 & H2 & H3 & _)].
  - rewrite E. destruct (funop_of s) as [op|]; [apply funop_name_not|].
    destruct (String.eqb s "size"); [discriminate|]. intros ->. discriminate Hi.
  - rewrite H1, H2. exact H3.
Qed.

Lemma py_fname_init s : py_fname s = n_init <-> s = n_init.
Proof.
  split; [|intros ->; reflexivity]. unfold py_fname. cbv zeta.
  destruct (funop_of (concrete_to_python s)) as [op|]; [intros H; exfalso; exact (proj2 (funop_name_not op) H)|].
  destruct (String.eqb (concrete_to_python s) "size"); [discriminate|]. apply (ctp_reserved n_init); cbn [In]; tauto.
Qed.

Lemma is_init_py f : is_init (py_fsig f) = is_init f.
Proof.
  unfold is_init, py_fsig. cbn [fst]. destruct (String.eqb (fst f) n_init) eqn:E.
  - apply String.eqb_eq in E. rewrite E. reflexivity.
  - apply String.eqb_neq. apply String.eqb_neq in E. intros H. apply E, (proj1 (py_fname_init _)), H.
Qed.

(** operators: the identifier the parser produced is the name that is printed *)
Lemma py_fname_operator s op : funop_of (concrete_to_python s) = Some op -> py_fname s = concrete_to_python s.
Proof. intros H. unfold py_fname. cbv zeta. rewrite H. apply funop_of_name, H. Qed.

Lemma py_fname_plain s :
  funop_of (concrete_to_python s) = None -> concrete_to_python s <> "size" -> py_fname s = concrete_to_python s.
Proof. intros H1 H2. unfold py_fname. cbv zeta. rewrite H1. apply String.eqb_neq in H2. rewrite H2. reflexivity. Qed.

Lemma first_is_self_py ps : first_is_self (map py_param ps) = first_is_self ps.
Proof.
  destruct ps as [|[[n v] d] r]; [reflexivity|]. cbn [map py_param first_is_self].
  destruct (String.eqb n n_self_) eqn:E.
  - apply String.eqb_eq in E. subst n. reflexivity.
  - apply String.eqb_neq. apply String.eqb_neq in E. intros H. apply E, (proj1 (ctp_reserved n_self_ (or_introl eq_refl) _)), H.
Qed.
Lemma with_self_py ps : map py_param (with_self ps) = with_self (map py_param ps).
Proof. unfold with_self. rewrite first_is_self_py. destruct (first_is_self ps); reflexivity. Qed.

Lemma plain_head c :
  plain c = true ->
  skey c = Id "@" /\ fsig_py c = None /\ fun_args c = [] /\ stmt_api_py c = [] /\ block_stmts c = [c].
Proof. destruct c; try discriminate; intros _; repeat split. Qed.

Lemma isfun_sig c : isfun c = is_some (fsig_py c).
Proof. destruct c; reflexivity. Qed.
Lemma misfun_sig m : misfun m = is_some (fsig_src m).
Proof. unfold misfun, fsig_src. destruct (ast_node m); reflexivity. Qed.
Lemma mname_fun m f : fsig_src m = Some f -> mname m = Some (py_fname (fst f)).
Proof. unfold fsig_src, mname. destruct (ast_node m); try discriminate. intros H. injection H as <-. reflexivity. Qed.

(** how a member [m] and its conversion [c] correspond: the signature; a single statement; the key [c] is
    filed under is the name of [m], or ["@"] if [m] is not a method *)
Definition shape (m : ast) (c : core) : Prop :=
  fsig_py c = option_map py_fsig (fsig_src m) /\
  forallb funarg_id (fun_args c) = true /\
  block_stmts c = [c] /\
  exists k, skey c = Id k /\
            if misfun m then mname m = Some k /\ k <> "@" else mname m = Some k \/ k = "@".

Lemma shape_isfun m c : shape m c -> isfun c = misfun m.
Proof. intros (Hf & _). rewrite isfun_sig, misfun_sig, Hf. destruct (fsig_src m); reflexivity. Qed.

Lemma plain_shape m c : fsig_src m = None -> plain c = true -> shape m c.
Proof.
  intros Hs Hp. destruct (plain_head c Hp) as (Hk & Hf & Ha & _ & Hb). unfold shape.
  rewrite Hs, Hf, Ha, misfun_sig, Hs. repeat split; [exact Hb|]. exists "@". split; [exact Hk | right; reflexivity].
Qed.

Lemma member_shape m c st i j :
  wf_member m = true -> clean st -> conv m st i = Some (c, j) -> shape m c.
Proof.
  intros Hwf Hc E. unfold wf_member in Hwf. destruct (wf_fun m) eqn:Hf.
  { destruct (fun_sig_preserved m st i c j Hf Hc E) as (f & Hs & Hp & Hi & Ha).
    destruct (wf_fun_inv m Hf) as (ty & ity & name & args & rt & body & -> & Hid & _).
    injection Hs as <-. repeat split; [exact Hp | exact Ha | destruct c; try discriminate Hi; reflexivity|].
    eexists. split; [exact (skey_fun _ _ Hp)|]. split; [reflexivity | apply py_fname_not_at, Hid]. }
  destruct (wf_field m) eqn:Hfd.
  { unfold wf_field in Hfd. apply andb_prop in Hfd. destruct Hfd as [Hv Hn].
    destruct (wf_vardef_inv m Hv) as (ty & var & vty & expr & -> & Ho). cbn [ast_node] in Hn.
    destruct (is_nid_inv var Hn) as (ity & s & ->).
    destruct (conv_vardef_head _ _ _ _ st i c j Ho Hc E) as (v & j1 & Hv' & Hhead).
    rewrite conv_id_eq in Hv' by (apply clean_tup, Hc). injection Hv' as <- <-.
    destruct Hhead as [Hp | (t & e' & ->)]; [apply plain_shape; [reflexivity | exact Hp]|].
    repeat split. eexists. split; [reflexivity | left; reflexivity]. }
  cbn [orb] in Hwf. destruct m as [ty nd]. cbn [ast_node] in Hwf.
  apply plain_shape; [destruct nd; try discriminate Hwf; reflexivity | exact (conv_opaque_plain ty nd st i c j Hwf Hc E)].
Qed.

Lemma Forall2_in_r {X Y} (R : X -> Y -> Prop) l l' y :
  Forall2 R l l' -> In y l' -> exists x, In x l /\ R x y.
Proof.
  induction 1 as [|a b l l' Hab _ IH]; [intros []|]. intros [<- | H].
  - exists a. split; [left; reflexivity | exact Hab].
  - destruct (IH H) as (x & Hx & Hr). exists x. split; [right; exact Hx | exact Hr].
Qed.
Lemma Forall2_in_l {X Y} (R : X -> Y -> Prop) l l' x :
  Forall2 R l l' -> In x l -> exists y, In y l' /\ R x y.
Proof.
  induction 1 as [|a b l l' Hab _ IH]; [intros []|]. intros [<- | H].
  - exists b. split; [left; reflexivity | exact Hab].
  - destruct (IH H) as (y & Hy & Hr). exists y. split; [right; exact Hy | exact Hr].
Qed.

Lemma funs_preserved ms cs : Forall2 shape ms cs -> funs_py cs = map py_fsig (funs_src ms).
Proof.
  induction 1 as [|m c ms cs (Hf & _) _ IH]; [reflexivity|]. unfold funs_py, funs_src in *. cbn [flat_map].
  rewrite Hf, map_app, IH. destruct (fsig_src m); reflexivity.
Qed.

Lemma shape_keys m c m' c' :
  shape m c -> shape m' c' ->
  (misfun m || misfun m') && same_name (mname m) (mname m') = false ->
  isfun c || isfun c' = true -> key_eqb (skey c') (skey c) = false.
Proof.
  intros Hs Hs' Hn Hfun. rewrite (shape_isfun m c Hs), (shape_isfun m' c' Hs') in Hfun.
  rewrite Hfun in Hn. cbn [andb] in Hn.
  destruct Hs as (_ & _ & _ & k & -> & Hk), Hs' as (_ & _ & _ & k' & -> & Hk').
  cbn [key_eqb]. apply String.eqb_neq. intros ->.
  assert (Hsame : mname m = Some k -> mname m' = Some k -> False).
  { intros H1 H2. rewrite H1, H2 in Hn. cbn [same_name] in Hn. rewrite String.eqb_refl in Hn. discriminate. }
  destruct (misfun m), (misfun m'); try discriminate Hfun.
  - exact (Hsame (proj1 Hk) (proj1 Hk')).
  - destruct Hk as [H1 H2], Hk' as [H3 | H3]; [exact (Hsame H1 H3) | exact (H2 H3)].
  - destruct Hk' as [H1 H2], Hk as [H3 | H3]; [exact (Hsame H3 H1) | exact (H2 H3)].
Qed.

Lemma names_kok ms cs : Forall2 shape ms cs -> names_ok ms = true -> forall i,
  kok_e (fun v => isfun (snd v)) (entries_from i cs).
Proof.
  induction 1 as [|m c ms cs Hmc HF IH]; [intros _ i; exact I|]. cbn [names_ok entries_from kok_e]. intros H i.
  apply andb_prop in H. destruct H as [H1 H2]. split; [|apply IH, H2].
  intros e' He' Hfun. destruct (in_entries _ _ _ He') as (k & c' & Hc' & ->).
  rewrite !stmt_entry_key. rewrite !stmt_entry_stmt in Hfun.
  destruct (Forall2_in_r _ _ _ _ HF Hc') as (m' & Hm' & Hs').
  rewrite forallb_forall in H1. specialize (H1 m' Hm'). apply negb_true_iff in H1.
  exact (shape_keys m c m' c' Hmc Hs' H1 Hfun).
Qed.

Lemma filter_map_py (l : list fsig) :
  filter (fun f => negb (is_init f)) (map py_fsig l) = map py_fsig (filter (fun f => negb (is_init f)) l).
Proof.
  induction l as [|f l IH]; [reflexivity|]. cbn [map filter]. rewrite is_init_py.
  destruct (negb (is_init f)); cbn [map]; rewrite IH; reflexivity.
Qed.
Lemma find_map_py (l : list fsig) : find is_init (map py_fsig l) = option_map py_fsig (find is_init l).
Proof.
  induction l as [|f l IH]; [reflexivity|]. cbn [map find]. rewrite is_init_py. destruct (is_init f); [reflexivity | exact IH].
Qed.

Lemma in_funs_src f ms : In f (funs_src ms) <-> exists m, In m ms /\ fsig_src m = Some f.
Proof.
  unfold funs_src. rewrite in_flat_map. split; intros (m & Hm & H); exists m; (split; [exact Hm|]).
  - destruct (fsig_src m); [destruct H as [<- | []]; reflexivity | destruct H].
  - rewrite H. left. reflexivity.
Qed.

Section ClassBody.
  Variables (ms : list ast) (cs ca ps pn body : list core) (cargs : list param).
  Hypothesis Hshape : Forall2 shape ms cs.
  Hypothesis Hnames : names_ok ms = true.
  Hypothesis Hfield : no_init_field ms = true.
  Hypothesis Hexpl : explicit_init_ok cargs (funs_src ms) = true.
  Hypothesis Hca : map param_py ca = map py_param cargs.
  Hypothesis Hfa : forallb funarg_id ca = true.
  Hypothesis Has : assemble_class cs ca ps = Some (pn, body).

  Lemma body_kok : kok cs. Proof. exact (names_kok ms cs Hshape Hnames 0). Qed.

  Lemma body_methods :
    filter (fun f => negb (is_init f)) (funs_py body)
    = map py_fsig (filter (fun f => negb (is_init f)) (funs_src ms)).
  Proof.
    rewrite funs_filter_meth, (assemble_methods cs ca ps pn body Has body_kok), <- funs_filter_meth.
    rewrite (funs_preserved ms cs Hshape). apply filter_map_py.
  Qed.

  Lemma no_explicit_old_init : find is_init (funs_src ms) = None -> old_init cs = None.
  Proof.
    intros Hnone. apply old_init_none. intros c Hc.
    destruct (Forall2_in_r _ _ _ _ Hshape Hc) as (m & Hm & (_ & _ & _ & k & -> & Hk)).
    cbn [key_eqb]. apply String.eqb_neq. intros <-. rewrite misfun_sig in Hk.
    destruct (fsig_src m) as [f|] eqn:Ef; cbn [is_some] in Hk.
    - destruct Hk as [Hk _]. rewrite (mname_fun m f Ef) in Hk. injection Hk as Hk. apply (proj1 (py_fname_init _)) in Hk.
      pose proof (find_none _ _ Hnone f (proj2 (in_funs_src f ms) (ex_intro _ m (conj Hm Ef)))) as H. unfold is_init in H.
      rewrite Hk, String.eqb_refl in H. discriminate.
    - destruct Hk as [Hk | Hk]; [|discriminate Hk]. unfold no_init_field in Hfield. rewrite forallb_forall in Hfield.
      specialize (Hfield m Hm). rewrite misfun_sig, Ef, Hk in Hfield. cbn [is_some orb same_name negb] in Hfield.
      rewrite String.eqb_refl in Hfield. discriminate.
  Qed.

  Lemma explicit_old_init f :
    find is_init (funs_src ms) = Some f ->
    exists d arg t b, old_init cs = Some (FunDef d n_init arg t b) /\
                      map param_py arg = map py_param (snd f) /\ forallb funarg_id arg = true.
  Proof.
    intros Hfind. apply find_some in Hfind. destruct Hfind as [Hin Hinit].
    apply in_funs_src in Hin. destruct Hin as (m & Hm & Ef).
    destruct (Forall2_in_l _ _ _ _ Hshape Hm) as (c & Hc & Hs). pose proof (shape_isfun m c Hs) as Hi.
    destruct Hs as (Hp & Hargs & _). rewrite misfun_sig, Ef in Hi. rewrite Ef in Hp. cbn [option_map is_some] in Hp, Hi.
    assert (Hname : py_fname (fst f) = n_init).
    { apply (proj2 (py_fname_init _)). unfold is_init in Hinit. apply String.eqb_eq, Hinit. }
    assert (Hkey : skey c = Id n_init) by (rewrite (skey_fun _ _ Hp); cbn [py_fsig fst]; rewrite Hname; reflexivity).
    rewrite (old_init_fun cs c body_kok Hc Hi Hkey).
    destruct c; try discriminate Hi.
    - cbn [fsig_py] in Hp. injection Hp as Hop _. exfalso. rewrite Hname in Hop. exact (proj2 (funop_name_not op) Hop).
    - cbn [fsig_py py_fsig fun_args] in *. injection Hp as Hid Hps. rewrite Hname in Hid. subst id.
      eexists. eexists. eexists. eexists. split; [reflexivity|]. split; assumption.
  Qed.

  Lemma body_ctor :
    find is_init (funs_py body) = option_map py_fsig (ctor_src cargs (List.length ps) (funs_src ms)).
  Proof.
    rewrite (assemble_ctor cs ca ps pn body Has body_kok).
    unfold explicit_init_ok, ctor_src in *.
    destruct (find is_init (funs_src ms)) as [f|] eqn:Hfind.
    - (* an explicit constructor *)
      destruct cargs as [|p0 cargs']; [|discriminate Hexpl].
      pose proof (map_eq_nil _ _ Hca) as Hnil. subst ca.
      destruct (explicit_old_init f Hfind) as (d & arg & t & b & Hold & Hps & Hargs). rewrite Hold.
      unfold with_self. rewrite Hexpl. cbn [option_map].
      destruct (class_init (Some (FunDef d n_init arg t b)) [] ps) as [ni|] eqn:Eci.
      + rewrite (class_init_with_self _ _ _ _ Eci Hargs). cbn [init_args]. rewrite Hps. unfold with_self. rewrite first_is_self_py, Hexpl. reflexivity.
      + rewrite (funs_preserved ms cs Hshape), find_map_py, Hfind. cbn [option_map].
        apply find_some in Hfind. destruct Hfind as [_ Hinit]. unfold is_init in Hinit. apply String.eqb_eq in Hinit.
        unfold py_fsig. rewrite Hinit. reflexivity.
    - (* no explicit constructor *)
      rewrite (no_explicit_old_init Hfind).
      destruct (class_init None ca ps) as [ni|] eqn:Eci.
      + rewrite (class_init_with_self _ _ _ _ Eci Hfa). cbn [init_args]. rewrite Hca. destruct cargs as [|p0 cargs'].
        * destruct ps as [|p ps'].
          -- pose proof (map_eq_nil _ _ Hca) as Hnil. subst ca. discriminate Eci.
          -- reflexivity.
        * cbn [option_map]. unfold py_fsig. cbn [fst snd]. rewrite with_self_py. reflexivity.
      + apply (class_init_none_iff ca ps Hfa) in Eci. destruct Eci as [-> ->].
        destruct cargs; [|discriminate Hca]. cbn [List.length option_map].
        rewrite (funs_preserved ms cs Hshape), find_map_py, Hfind. reflexivity.
  Qed.
End ClassBody.

Lemma parent_preserved a st i p j :
  is_parent a = true -> clean st -> conv a st i = Some (p, j) ->
  exists x, parent_name p = Some x /\ core_name x = concrete_to_python (parent_src a).
Proof.
  intros Hwf Hc E. destruct (is_parent_inv a Hwf) as (ty & name & gs & args & ->). conv_case E Hc.
  apply bind_inv in E. destruct E as (t & i1 & Ht & E). apply tn_head in Ht. destruct Ht as (gs' & ->).
  destruct args as [|x r].
  - apply ret_inv in E. destruct E as [<- _]. eexists. split; reflexivity.
  - apply bind_inv in E. destruct E as (cs & i2 & _ & E). apply ret_inv in E. destruct E as [<- _].
    eexists. split; reflexivity.
Qed.

Lemma parents_preserved parents st ps : forall pn,
  forallb is_parent parents = true -> clean st ->
  Forall2 (fun x y => exists i j, conv x st i = Some (y, j)) parents ps ->
  map parent_name ps = map Some pn ->
  map core_name pn = map concrete_to_python (map parent_src parents).
Proof.
  intros pn Hwf Hc HF. revert pn. induction HF as [|a p parents ps (i & j & E) _ IH]; intros pn Hpn.
  - destruct pn; [reflexivity | discriminate Hpn].
  - cbn [forallb] in Hwf. apply andb_prop in Hwf. destruct Hwf as [Ha Hr].
    destruct (parent_preserved a st i p j Ha Hc E) as (x & Hx & Hn).
    destruct pn as [|y pn]; [discriminate Hpn|]. cbn [map] in Hpn. injection Hpn as Hy Hpn.
    rewrite Hx in Hy. injection Hy as <-. cbn [map]. rewrite Hn, (IH Hr pn Hpn). reflexivity.
Qed.

Lemma body_members st body b i0 j0 :
  clean st -> forallb wf_member (members_of body) = true ->
  mopt (fun x => conv x st) body i0 = Some (b, j0) ->
  Forall2 (fun x y => exists i j, conv x st i = Some (y, j)) (members_of body)
          (match b with Some x => block_stmts x | None => [] end).
Proof.
  intros Hc Hwf E. apply mopt_inv in E. destruct E as [Hs E].
  destruct body as [bd|], b as [x|]; try discriminate Hs; [|constructor].
  assert (Hsingle : members_of (Some bd) = [bd] ->
            Forall2 (fun x y => exists i j, conv x st i = Some (y, j)) [bd] (block_stmts x)).
  { intros Hm. rewrite Hm in Hwf. cbn [forallb] in Hwf. apply andb_prop in Hwf. destruct Hwf as [Hwf _].
    destruct (member_shape bd x st i0 j0 Hwf Hc E) as (_ & _ & -> & _).
    constructor; [exists i0, j0; exact E | constructor]. }
  destruct bd as [ty nd]. destruct nd; try (cbn [members_of]; apply Hsingle; reflexivity).
  cbn [members_of]. conv_case E Hc.
  apply bind_inv in E. destruct E as (cs & i1 & Hcs & E). apply ret_inv in E. destruct E as [<- _].
  cbn [block_stmts]. exact (mmap_inv _ _ _ _ _ Hcs).
Qed.

Lemma body_api st body b i0 j0 cargs ca ps pn bs :
  clean st -> wf_body cargs body = true ->
  mopt (fun x => conv x st) body i0 = Some (b, j0) ->
  map param_py ca = map py_param cargs -> forallb funarg_id ca = true ->
  assemble_class (match b with Some x => block_stmts x | None => [] end) ca ps = Some (pn, bs) ->
  find is_init (funs_py bs) = option_map py_fsig (ctor_src cargs (List.length ps) (funs_src (members_of body))) /\
  filter (fun f => negb (is_init f)) (funs_py bs)
  = map py_fsig (filter (fun f => negb (is_init f)) (funs_src (members_of body))).
Proof.
  intros Hc Hwf E Hca Hfa Has. unfold wf_body in Hwf. cbv zeta in Hwf.
  apply andb_prop in Hwf. destruct Hwf as [Hwf Hex]. apply andb_prop in Hwf. destruct Hwf as [Hwf Hfld].
  apply andb_prop in Hwf. destruct Hwf as [Hmem Hnames].
  pose proof (conv_all wf_member shape st _ _ (fun m i c j Hm Em => member_shape m c st i j Hm Hc Em) Hmem
                (body_members st body b i0 j0 Hc Hmem E)) as Hshape.
  split.
  - exact (body_ctor _ _ _ _ _ _ _ Hshape Hnames Hfld Hex Hca Hfa Has).
  - exact (body_methods _ _ _ _ _ _ Hshape Hnames Has).
Qed.

Lemma F2_length {X Y} (R : X -> Y -> Prop) l l' : Forall2 R l l' -> List.length l = List.length l'.
Proof. induction 1; [reflexivity|]. cbn [List.length]. congruence. Qed.

Lemma class_preserved ty name generics args parents body st i c j :
  wf_stmt (A ty (NClass name generics args parents body)) = true -> clean st ->
  conv (A ty (NClass name generics args parents body)) st i = Some (c, j) ->
  stmt_api_py c = map py_sig (stmt_api_src (A ty (NClass name generics args parents body))) /\ block_stmts c = [c].
Proof.
  unfold wf_stmt. cbn [ast_node]. intros Hwf Hc E.
  apply andb_prop in Hwf. destruct Hwf as [Hwf Hbody]. apply andb_prop in Hwf. destruct Hwf as [Hargs Hpar].
  conv_case E Hc.
  apply bind_inv in E. destruct E as (ps & i1 & Hps & E). apply mmap_inv in Hps.
  apply bind_inv in E. destruct E as (b & i2 & Hb & E).
  apply bind_inv in E. destruct E as (ca & i3 & Hca & E). apply mmap_inv in Hca.
  destruct (assemble_class _ ca ps) as [[pn bs]|] eqn:Has; [|discriminate E].
  apply bind_inv in E. destruct E as (t & i4 & Ht & E). apply tn_head in Ht. destruct Ht as (gs' & ->).
  apply ret_inv in E. destruct E as [<- _].
  set (cst := with_interface st false) in *.
  assert (Hcst : clean cst) by (apply clean_interface, Hc).
  destruct (params_preserved args ca (conv_all wf_carg _ (with_def_as_fun_arg cst true) args ca
              (fun a i c j Ha Ea => class_arg_preserved a _ i c j Ha (clean_dafa _ _ Hcst) eq_refl Ea) Hargs Hca))
    as [Hcap Hcaf].
  destruct (body_api cst body b i1 i2 (map param_src args) ca ps pn bs Hcst Hbody Hb Hcap Hcaf Has) as [Hctor Hmeth].
  split; [|reflexivity].
  cbn [stmt_api_py stmt_api_src ast_node block_stmts map py_sig class_src core_name].
  rewrite Hctor, Hmeth.
  rewrite (parents_preserved parents st ps pn Hpar Hc Hps (assemble_parents _ _ _ _ _ Has)).
  rewrite map_length, (F2_length _ _ _ Hps). reflexivity.
Qed.

Lemma typedef_preserved ty name generics isa body abstract_parent st i c j :
  wf_stmt (A ty (NTypeDef name generics isa body abstract_parent)) = true -> clean st ->
  conv (A ty (NTypeDef name generics isa body abstract_parent)) st i = Some (c, j) ->
  stmt_api_py c = map py_sig (stmt_api_src (A ty (NTypeDef name generics isa body abstract_parent)))
  /\ block_stmts c = [c].
Proof.
  unfold wf_stmt. cbn [ast_node]. intros Hwf Hc E. apply andb_prop in Hwf. destruct Hwf as [Hisa Hbody].
  conv_case E Hc.
  apply bind_inv in E. destruct E as (ps & i1 & Hps & E).
  apply bind_inv in E. destruct E as (b & i2 & Hb & E).
  destruct (assemble_class _ [] ps) as [[pn bs]|] eqn:Has; [|discriminate E].
  apply bind_inv in E. destruct E as (pn' & i3 & Hpn' & E).
  apply bind_inv in E. destruct E as (t & i4 & Ht & E). apply tn_head in Ht. destruct Ht as (gs' & ->).
  apply ret_inv in E. destruct E as [<- _].
  set (cst := with_interface st true) in *.
  assert (Hcst : clean cst) by (apply clean_interface, Hc).
  destruct (body_api cst body b i1 i2 [] [] ps pn bs Hcst Hbody Hb eq_refl eq_refl Has) as [Hctor Hmeth].
  (* the parents *)
  assert (Hpar : map core_name pn = map concrete_to_python (match isa with Some n => [nm_parent n] | None => [] end)
                 /\ List.length ps = List.length (match isa with Some n => [nm_parent n] | None => [] end)).
  { pose proof (assemble_parents _ _ _ _ _ Has) as Hp.
    destruct isa as [n|].
    - destruct n as [ms]. destruct ms as [|[nl nn ng] rest]; [discriminate Hisa|].
      destruct nl; [destruct rest; discriminate Hisa|]. destruct rest as [|t2 r]; [|discriminate Hisa].
      apply bind_inv in Hps. destruct Hps as (t & i5 & Ht2 & Hps). apply ret_inv in Hps. destruct Hps as [<- _].
      unfold lift in Ht2. rewrite nm_to_py_unfold in Ht2. apply (tn_head nn ng) in Ht2. destruct Ht2 as (gs2 & ->).
      cbn [map parent_name] in Hp. destruct pn as [|y [|z pn]]; try discriminate Hp. injection Hp as <-.
      split; reflexivity.
    - apply ret_inv in Hps. destruct Hps as [<- _]. destruct pn; [split; reflexivity | discriminate Hp]. }
  destruct Hpar as [Hpar Hlen].
  split; [|reflexivity].
  cbn [stmt_api_py stmt_api_src ast_node block_stmts map py_sig core_name]. cbv zeta.
  rewrite Hctor, Hmeth, Hlen. destruct abstract_parent.
  - apply ret_inv in Hpn'. destruct Hpn' as [<- _]. rewrite Hpar. reflexivity.
  - apply bind_inv in Hpn'. destruct Hpn' as (u & i6 & _ & Hpn'). apply ret_inv in Hpn'. destruct Hpn' as [<- _].
    rewrite !map_app, Hpar. reflexivity.
Qed.

Lemma stmt_preserved a st i c j :
  wf_stmt a = true -> clean st -> conv a st i = Some (c, j) ->
  stmt_api_py c = map py_sig (stmt_api_src a) /\ block_stmts c = [c].
Proof.
  intros Hwf Hc E. destruct a as [ty nd].
  assert (Hplain : plain c = true -> stmt_api_src (A ty nd) = [] ->
            stmt_api_py c = map py_sig (stmt_api_src (A ty nd)) /\ block_stmts c = [c]).
  { intros Hp ->. destruct (plain_head c Hp) as (_ & _ & _ & H). exact H. }
  destruct nd;
    try (apply Hplain; [exact (conv_opaque_plain ty _ st i c j Hwf Hc E) | reflexivity]); try discriminate Hwf.
  - (* NVarDef *)
    unfold wf_stmt in Hwf. cbn [ast_node opaque] in Hwf. rewrite orb_false_r in Hwf.
    destruct (wf_vardef_inv _ Hwf) as (ty' & var' & vty' & expr' & Ha & Ho). injection Ha as <- <- <- <-.
    destruct (conv_vardef_head _ _ _ _ st i c j Ho Hc E) as (v & j1 & _ & [Hp | (t & e' & ->)]);
      [apply Hplain; [exact Hp | reflexivity] | split; reflexivity].
  - (* NFunDef *)
    unfold wf_stmt in Hwf. cbn [ast_node] in Hwf.
    destruct (fun_sig_preserved _ st i c j Hwf Hc E) as (f & Hs & Hp & Hi & _).
    unfold stmt_api_src. cbn [ast_node]. rewrite Hs. cbn [map py_sig].
    destruct c; try discriminate Hi; cbn [stmt_api_py]; rewrite Hp; split; reflexivity.
  - exact (class_preserved _ _ _ _ _ _ st i c j Hwf Hc E).
  - exact (typedef_preserved _ _ _ _ _ _ st i c j Hwf Hc E).
Qed.

Lemma stmts_preserved stmts cs :
  Forall2 (fun a c => stmt_api_py c = map py_sig (stmt_api_src a) /\ block_stmts c = [c]) stmts cs ->
  flat_map stmt_api_py cs = map py_sig (flat_map stmt_api_src stmts).
Proof.
  induction 1 as [|a c stmts cs [Hc _] _ IH]; [reflexivity|]. cbn [flat_map]. rewrite map_app, IH, Hc. reflexivity.
Qed.

Theorem api_preserved st i a c j :
  clean st -> conv a st i = Some (c, j) -> wf_api a = true -> api_py c = map py_sig (api_src a).
Proof.
  intros Hc E Hwf. destruct a as [ty nd].
  assert (Hone : wf_stmt (A ty nd) = true -> api_py c = map py_sig (stmt_api_src (A ty nd))).
  { intros H. destruct (stmt_preserved _ _ _ _ _ H Hc E) as [H1 H2]. unfold api_py. rewrite H2. cbn [flat_map].
    rewrite app_nil_r. exact H1. }
  destruct nd; try (exact (Hone Hwf)).
  (* NBlock *)
  cbn [wf_api api_src] in *. conv_case E Hc.
  apply bind_inv in E. destruct E as (cs & i1 & Hcs & E). apply ret_inv in E. destruct E as [<- _].
  unfold api_py. cbn [block_stmts]. apply stmts_preserved.
  exact (conv_all wf_stmt _ st _ _ (fun a i c j Ha Ea => stmt_preserved a st i c j Ha Hc Ea) Hwf (mmap_inv _ _ _ _ _ Hcs)).
Qed.

Definition same_ctp (s : string) : bool := String.eqb (concrete_to_python s) s.
Definition plain_name (s : string) : bool := same_ctp s && negb (String.eqb s "size").
Definition plain_param (p : param) : bool := let '(n, _, _) := p in same_ctp n.
Definition plain_fsig (f : fsig) : bool := plain_name (fst f) && forallb plain_param (snd f).
Definition plain_sig (s : sig) : bool :=
  match s with
  | SFun f => plain_fsig f
  | SClass n ps ctor ms =>
      same_ctp n && forallb same_ctp ps && match ctor with Some f => plain_fsig f | None => true end
      && forallb plain_fsig ms
  end.

Lemma map_same {X} (f : X -> X) (p : X -> bool) l :
  (forall x, p x = true -> f x = x) -> forallb p l = true -> map f l = l.
Proof.
  intros H. induction l as [|x l IH]; [reflexivity|]. cbn [forallb map]. intros Hl.
  apply andb_prop in Hl. destruct Hl as [Hx Hl]. rewrite (H x Hx), (IH Hl). reflexivity.
Qed.

Lemma py_fname_same s : plain_name s = true -> py_fname s = s.
Proof.
  unfold plain_name, same_ctp. intros H. apply andb_prop in H. destruct H as [H1 H2].
  apply String.eqb_eq in H1. apply negb_true_iff in H2. unfold py_fname. cbv zeta. rewrite H1.
  destruct (funop_of s) as [op|] eqn:E; [apply funop_of_name, E | rewrite H2; reflexivity].
Qed.
Lemma py_param_same p : plain_param p = true -> py_param p = p.
Proof. destruct p as [[n v] d]. unfold plain_param, same_ctp, py_param. intros H. apply String.eqb_eq in H. rewrite H. reflexivity. Qed.
Lemma py_fsig_same f : plain_fsig f = true -> py_fsig f = f.
Proof.
  destruct f as [n ps]. unfold plain_fsig, py_fsig. cbn [fst snd]. intros H. apply andb_prop in H. destruct H as [H1 H2].
  rewrite (py_fname_same n H1), (map_same py_param plain_param ps py_param_same H2). reflexivity.
Qed.
Lemma py_sig_same s : plain_sig s = true -> py_sig s = s.
Proof.
  destruct s as [f | n ps ctor ms]; cbn [plain_sig py_sig]; intros H.
  - rewrite (py_fsig_same f H). reflexivity.
  - apply andb_prop in H. destruct H as [H H4]. apply andb_prop in H. destruct H as [H H3].
    apply andb_prop in H. destruct H as [H1 H2]. unfold same_ctp in H1. apply String.eqb_eq in H1.
    rewrite H1, (map_same py_fsig plain_fsig ms py_fsig_same H4).
    rewrite (map_same concrete_to_python same_ctp ps (fun x Hx => proj1 (String.eqb_eq _ _) Hx) H2).
    destruct ctor as [f|]; [cbn [option_map]; rewrite (py_fsig_same f H3)|]; reflexivity.
Qed.
