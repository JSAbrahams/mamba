(** * Properties of the assignability relation (model/Types.v)

    On the non-generic fragment - a table satisfying [ctx_ok] that is acyclic, names whose members are [plain] -
    [super] always answers [Ok r], and [r] is characterised by the declarative relation [nsup] (ancestor search +
    nullable rule + "every member covered"): [super_char].  The algebraic laws are proved on [nsup] and transported
    through the characterisation. *)
From Coq Require Import List String Bool Arith Lia Permutation.
From MambaModel Require Import model.Types.
Import ListNotations.
Local Open Scope string_scope.


Lemma forallb_negb rs : forallb negb rs = negb (existsb (fun b => b) rs).
Proof. induction rs as [|[] rs IH]; [reflexivity | reflexivity | exact IH]. Qed.

Lemma forallb_ext_in {A} (f g : A -> bool) l : (forall x, In x l -> f x = g x) -> forallb f l = forallb g l.
Proof.
  intros H. induction l as [|a l IH]; [reflexivity|]. cbn [forallb].
  rewrite (H a (or_introl eq_refl)), IH; [reflexivity|]. intros x Hx. apply H. right. exact Hx.
Qed.

Lemma existsb_ext_in {A} (f g : A -> bool) l : (forall x, In x l -> f x = g x) -> existsb f l = existsb g l.
Proof.
  intros H. induction l as [|a l IH]; [reflexivity|]. cbn [existsb].
  rewrite (H a (or_introl eq_refl)), IH; [reflexivity|]. intros x Hx. apply H. right. exact Hx.
Qed.

Definition decides (r : res bool) (P : Prop) : Prop := exists b, r = Ok b /\ (b = true <-> P).

Lemma decides_true (P : Prop) : P -> decides (Ok true) P.
Proof. intros H. exists true. tauto. Qed.

Lemma decides_false (P : Prop) : ~ P -> decides (Ok false) P.
Proof. intros H. exists false. split; [reflexivity|]. split; [discriminate | contradiction]. Qed.

Lemma decides_iff r (P Q : Prop) : (P <-> Q) -> decides r P -> decides r Q.
Proof. intros E [b [Hr Hb]]. exists b. rewrite <- E. auto. Qed.

Lemma decides_ok_true r P : decides r P -> (r = Ok true <-> P).
Proof. intros [b [-> Hb]]. rewrite <- Hb. split; [intros E; injection E; auto | intros ->; reflexivity]. Qed.

Lemma decides_ok_false r P : decides r P -> (r = Ok false <-> ~ P).
Proof.
  intros [b [-> Hb]]. rewrite <- Hb.
  split; [intros E; injection E as ->; discriminate | intros H; destruct b; [exfalso; auto | reflexivity]].
Qed.

Lemma mapM_ok_iff {A : Type} (f : A -> res bool) (P : A -> Prop) (l : list A) :
  (forall x, In x l -> decides (f x) (P x)) ->
  exists rs, mapM f l = Ok rs /\ (existsb (fun b => b) rs = true <-> exists x, In x l /\ P x).
Proof.
  induction l as [|x l IH]; intros H.
  - exists []. split; [reflexivity|]. split; [discriminate | intros [x [[] _]]].
  - destruct (H x (or_introl eq_refl)) as [r [Hr Hp]].
    destruct IH as [rs [Hrs Hex]]. { intros y Hy. apply H. right. exact Hy. }
    exists (r :: rs). cbn [mapM]. rewrite Hr. cbn [bind]. rewrite Hrs. split; [reflexivity|].
    cbn [existsb]. rewrite orb_true_iff, Hex, Hp. split.
    + intros [Hx | [y [Hy Py]]]; [exists x | exists y]; cbn; auto.
    + intros [y [[<- | Hy] Py]]; [left | right; exists y]; auto.
Qed.

Lemma mapM_all_ok {A B : Type} (f : A -> res B) (l : list A) :
  (forall x, In x l -> exists y, f x = Ok y) -> exists ys, mapM f l = Ok ys.
Proof.
  induction l as [|x l IH]; intros H; [exists []; reflexivity|].
  destruct (H x (or_introl eq_refl)) as [y Hy].
  destruct IH as [ys Hys]. { intros z Hz. apply H. right. exact Hz. }
  exists (y :: ys). cbn [mapM]. rewrite Hy. cbn [bind]. rewrite Hys. reflexivity.
Qed.

Lemma mapM_id {A : Type} (f : A -> res A) (l : list A) :
  (forall x, In x l -> f x = Ok x) -> mapM f l = Ok l.
Proof.
  induction l as [|x l IH]; intros H; [reflexivity|].
  cbn [mapM]. rewrite (H x (or_introl eq_refl)). cbn [bind]. rewrite IH; [reflexivity|].
  intros y Hy. apply H. right. exact Hy.
Qed.

Lemma nub_in {A : Type} (eqb : A -> A -> bool) (l : list A) x : In x (nub eqb l) -> In x l.
Proof.
  revert x. induction l as [|y l IH]; intros x; cbn [nub]; [auto|].
  intros [<- | H]; [left; reflexivity|]. apply filter_In in H. right. apply IH. apply H.
Qed.


Definition acyclic (cx : ctx) : Prop :=
  exists rank : string -> nat,
    (forall c, In c cx -> rank (cl_name c) < List.length cx) /\
    (forall c p, In c cx -> In p (cl_parents c) -> rank (tcname p) < rank (cl_name c)).

Inductive anc (cx : ctx) : string -> string -> Prop :=
| anc_refl : forall a, anc cx a a
| anc_step : forall a b c p,
    find_cls cx b = Some c -> In p (cl_parents c) -> anc cx a (tcname p) -> anc cx a b.

Definition psup (cx : ctx) (a b : string) : Prop := a = ANY \/ anc cx a b.
Definition tsup (cx : ctx) (t1 t2 : ty) : Prop :=
  (tnull t1 = true /\ is_null t2 = true) \/
  ((tnull t1 = true \/ tnull t2 = false) /\ psup cx (tcname t1) (tcname t2)).
Definition nsup (cx : ctx) (A B : name) : Prop :=
  (B = [] -> A = []) /\ forall o, In o B -> exists s, In s A /\ tsup cx s o.

Lemma find_cls_some cx s c : find_cls cx s = Some c -> cl_name c = s /\ In c cx.
Proof.
  unfold find_cls. intros H. apply find_some in H. destruct H as [Hin He].
  apply String.eqb_eq in He. auto.
Qed.

Lemma ty_eqb_plain_l n s t : ty_eqb (TN n s []) t = true <-> t = TN n s [].
Proof.
  destruct t as [n2 s2 g2]. cbn [ty_eqb]. split.
  - intros H. apply andb_true_iff in H. destruct H as [H Hg]. apply andb_true_iff in H. destruct H as [Hn Hs].
    apply eqb_prop in Hn. apply String.eqb_eq in Hs. destruct g2; [|discriminate]. subst. reflexivity.
  - intros H. injection H as -> -> ->. rewrite eqb_reflx, String.eqb_refl. reflexivity.
Qed.

Section TyInd.
  Variable P : ty -> Prop.
  Hypothesis HTN : forall n s g, Forall (Forall P) g -> P (TN n s g).
  Fixpoint ty_ind' (t : ty) : P t :=
    match t with
    | TN n s g =>
        HTN n s g
          ((fix args (g : list name) : Forall (Forall P) g :=
              match g with
              | [] => Forall_nil _
              | a :: r =>
                  Forall_cons a ((fix mems (a : name) : Forall P a :=
                                    match a with
                                    | [] => Forall_nil P
                                    | u :: r' => Forall_cons u (ty_ind' u) (mems r')
                                    end) a) (args r)
              end) g)
    end.
End TyInd.

Lemma ty_eqb_sym a : forall b, ty_eqb a b = ty_eqb b a.
Proof.
  induction a as [n1 s1 g1 IH] using ty_ind'. intros [n2 s2 g2]. cbn [ty_eqb].
  rewrite (String.eqb_sym s1 s2). replace (Bool.eqb n1 n2) with (Bool.eqb n2 n1) by (destruct n1, n2; reflexivity).
  f_equal. revert g2. induction IH as [|x g1 Hx _ IHg]; intros [|y g2]; try reflexivity.
  rewrite IHg. f_equal. rewrite Forall_forall in Hx. rewrite andb_comm. f_equal.
  - apply forallb_ext_in. intros u _. apply existsb_ext_in. intros t Ht. apply Hx, Ht.
  - apply forallb_ext_in. intros t Ht. apply existsb_ext_in. intros u _. apply Hx, Ht.
Qed.

Lemma name_eqb_sym x y : name_eqb x y = name_eqb y x.
Proof.
  unfold name_eqb, name_incl. rewrite andb_comm. f_equal;
    apply forallb_ext_in; intros u _; apply existsb_ext_in; intros t _; apply ty_eqb_sym.
Qed.

Lemma plain_class_inv cx s :
  is_plain_class cx s = true -> exists c, find_cls cx s = Some c /\ cl_gen c = [] /\ s <> "()" /\ s <> TUPLE.
Proof.
  unfold is_plain_class. intros H. repeat (apply andb_true_iff in H; destruct H as [H ?]).
  destruct (find_cls cx s) as [c|] eqn:F; [|discriminate].
  destruct (cl_gen c) eqn:G; [|discriminate].
  exists c. repeat split; auto; intros ->; discriminate.
Qed.

Lemma plain_inv cx t :
  plain cx t = true ->
  exists n s, t = TN n s [] /\ is_plain_class cx s = true /\ (n = true -> s <> NONE).
Proof.
  destruct t as [n s g]. unfold plain. cbn [tgens tcname tnull is_null].
  intros H. apply andb_true_iff in H as [H N]. apply andb_true_iff in H as [G P].
  destruct g; [|discriminate]. exists n, s. repeat split; auto. intros -> ->. discriminate.
Qed.

Lemma subst_plain p : tgens p = [] -> subst_ty [] p = Ok p.
Proof. destruct p as [n s g]. cbn [tgens]. intros ->. reflexivity. Qed.

Lemma psup_refl cx a : psup cx a a.
Proof. right. constructor. Qed.

Definition flat (l : name) : Prop := forall t, In t l -> tgens t = [].

Lemma flat_eqb l : flat l -> forall a b, In a l -> In b l -> (ty_eqb a b = true <-> a = b).
Proof.
  intros Hf a b Ha Hb. specialize (Hf a Ha). destruct a as [n s g]. cbn [tgens] in Hf. subst g.
  rewrite ty_eqb_plain_l. split; intros H; symmetry; exact H.
Qed.

Lemma flat_tl y l : flat (y :: l) -> flat l.
Proof. intros Hf a Ha. apply Hf. right. exact Ha. Qed.

Lemma in_nub_flat l x : flat l -> (In x (nub ty_eqb l) <-> In x l).
Proof.
  intros Hf. split; [apply nub_in|]. induction l as [|y l IH]; [intros []|].
  cbn [nub]. intros [<- | Hx]; [left; reflexivity|].
  destruct (ty_eqb y x) eqn:E.
  - left. apply (flat_eqb _ Hf); [left; reflexivity | right; exact Hx | exact E].
  - right. apply filter_In. split; [|rewrite E; reflexivity]. exact (IH (flat_tl _ _ Hf) Hx).
Qed.

Lemma nodup_nub_flat l : flat l -> NoDup (nub ty_eqb l).
Proof.
  induction l as [|y l IH]; intros Hf; cbn [nub]; constructor.
  - intros H. apply filter_In in H. destruct H as [Hin Hn].
    rewrite (proj2 (flat_eqb _ Hf y y (or_introl eq_refl) (or_introl eq_refl)) eq_refl) in Hn. discriminate.
  - apply NoDup_filter, IH, (flat_tl _ _ Hf).
Qed.

Lemma ctx_ok_inv cx :
  ctx_ok cx = true -> uniqueb (map cl_name cx) = true /\ plain_closed cx = true /\ specials_ok cx = true.
Proof. unfold ctx_ok. intros H. apply andb_true_iff in H as [H S]. apply andb_true_iff in H as [U P]. auto. Qed.

Section Plain.
  Variable cx : ctx.
  Hypothesis Hok : ctx_ok cx = true.
  Variable rank : string -> nat.
  Hypothesis rank_bound : forall c, In c cx -> rank (cl_name c) < List.length cx.
  Hypothesis rank_dec : forall c p, In c cx -> In p (cl_parents c) -> rank (tcname p) < rank (cl_name c).

  Lemma Hspecial : specials_ok cx = true.
  Proof. apply ctx_ok_inv, Hok. Qed.

  Lemma parents_plain s c p :
    find_cls cx s = Some c -> cl_gen c = [] -> In p (cl_parents c) ->
    tgens p = [] /\ is_plain_class cx (tcname p) = true /\ rank (tcname p) < rank s.
  Proof.
    intros F G Hp. destruct (find_cls_some _ _ _ F) as [Hn Hin].
    destruct (ctx_ok_inv _ Hok) as [_ [Hc _]]. unfold plain_closed in Hc. rewrite forallb_forall in Hc.
    specialize (Hc c Hin). rewrite G in Hc. rewrite forallb_forall in Hc. specialize (Hc p Hp).
    destruct (tgens p); [|discriminate]. split; [reflexivity|]. split; [exact Hc|].
    rewrite <- Hn. apply rank_dec; assumption.
  Qed.

  Lemma rank_lt s : is_plain_class cx s = true -> rank s < List.length cx.
  Proof.
    intros P. destruct (plain_class_inv _ _ P) as [c [F _]]. destruct (find_cls_some _ _ _ F) as [Hn Hin].
    rewrite <- Hn. apply rank_bound. exact Hin.
  Qed.

  Lemma lookup_plain f : forall s c,
    find_cls cx s = Some c -> cl_gen c = [] -> s <> TUPLE -> rank s < f ->
    lookup f cx (s, []) = Ok {| k_name := (s, []); k_parents := nub ty_eqb (cl_parents c) |}.
  Proof.
    induction f as [|f IH]; intros s c F G Ht Hr; [lia|].
    cbn [lookup fst snd]. rewrite F. apply String.eqb_neq in Ht. rewrite Ht, G. cbn [zip_longest].
    destruct (find_cls_some _ _ _ F) as [Hn Hin]. rewrite Hn.
    unfold subst_sn, of_sn. cbn [fst snd]. rewrite subst_plain by reflexivity. cbn [bind variant tcname tgens].
    rewrite mapM_id.
    2:{ intros p Hp. apply subst_plain. apply (parents_plain _ _ _ F G Hp). }
    cbn [bind].
    destruct (mapM_all_ok (fun p => lookup f cx (variant p)) (nub ty_eqb (cl_parents c))) as [ys Hys].
    { intros p Hp. apply nub_in in Hp. destruct (parents_plain _ _ _ F G Hp) as [Gp [Pp Rp]].
      destruct (plain_class_inv _ _ Pp) as [cp [Fp [Gcp [_ Tp]]]].
      eexists. unfold variant. rewrite Gp. apply (IH _ cp); auto. lia. }
    rewrite Hys. reflexivity.
  Qed.

  Lemma sn_super_plain lf : List.length cx < lf -> forall f s a,
    is_plain_class cx s = true -> rank s < f -> decides (sn_super f lf cx (a, []) (s, [])) (psup cx a s).
  Proof.
    intros Hlf. induction f as [|f IH]; intros s a P Hr; [lia|].
    destruct (plain_class_inv _ _ P) as [c [F [G [_ Ht]]]].
    unfold sn_super. rewrite (lookup_plain lf _ c) by (auto; pose proof (rank_lt _ P); lia).
    cbn [bind hp k_name k_parents]. unfold sn_eqb. cbn [fst snd gens_eqb]. rewrite andb_true_r.
    destruct (String.eqb s a) eqn:Esa.
    { apply String.eqb_eq in Esa. subst a. apply decides_true, psup_refl. }
    destruct (String.eqb a ANY) eqn:Eany.
    { apply String.eqb_eq in Eany. apply decides_true. left. exact Eany. }
    cbn [orb]. unfold is_contender. cbn [fst snd]. apply String.eqb_neq in Ht. rewrite Ht, Esa. cbn [andb orb bind].
    destruct (mapM_ok_iff
                (fun p => bind (lookup lf cx (variant p)) (fun kp => hp f lf cx kp (a, [])))
                (fun p => psup cx a (tcname p)) (nub ty_eqb (cl_parents c))) as [rs [Hrs Hex]].
    { intros p Hp. apply nub_in in Hp. destruct (parents_plain _ _ _ F G Hp) as [Gp [Pp Rp]].
      unfold variant. rewrite Gp. apply IH; [exact Pp | lia]. }
    rewrite Hrs. cbn [bind]. eexists. split; [reflexivity|]. rewrite Hex. split.
    - intros [p [Hp Pp]]. apply nub_in in Hp. destruct Pp as [Pp | Pp]; [left; exact Pp|].
      right. econstructor; eauto.
    - intros [Pa | Pa]; [rewrite Pa in Eany; discriminate|].
      inversion Pa as [|a' b' c' p F' Hp Hanc]; subst.
      + rewrite String.eqb_refl in Esa. discriminate.
      + rewrite F in F'. injection F' as <-. exists p. split; [|right; exact Hanc].
        apply in_nub_flat; [intros q Hq; apply (parents_plain _ _ _ F G Hq) | exact Hp].
  Qed.

  Definition enough (f lf : nat) : Prop := List.length cx <= f /\ List.length cx < lf.

  Lemma sn_empty_plain s : is_plain_class cx s = true -> sn_is_empty (s, []) = false.
  Proof.
    intros P. destruct (plain_class_inv _ _ P) as [_ [_ [_ [H1 H2]]]]. apply String.eqb_neq in H1, H2. unfold sn_is_empty, sn_eqb. cbn [fst snd gens_eqb].
    rewrite H1, H2. reflexivity.
  Qed.

  Lemma tn_super_plain f lf t1 t2 :
    enough f lf -> plain cx t1 = true -> plain cx t2 = true -> decides (tn_super f lf cx t1 t2) (tsup cx t1 t2).
  Proof.
    intros [Hf Hlf] P1 P2.
    destruct (plain_inv _ _ P1) as [n1 [s1 [-> [C1 _]]]]. destruct (plain_inv _ _ P2) as [n2 [s2 [-> [C2 _]]]].
    unfold tn_super, tsup, variant, is_null. cbn [tcname tgens tnull].
    rewrite !sn_empty_plain by assumption. cbn [negb andb].
    destruct (n1 && String.eqb s2 NONE) eqn:Enull.
    { apply decides_true. left. apply andb_true_iff, Enull. }
    destruct (n1 || negb n1 && negb n2) eqn:Ens.
    - eapply decides_iff; [|apply (sn_super_plain lf Hlf f s2 s1 C2); pose proof (rank_lt _ C2); lia].
      split.
      + intros H. right. split; [|exact H]. destruct n1; [left; reflexivity|]. destruct n2; [discriminate|right; reflexivity].
      + intros [[H1 H2] | [_ H]]; [|exact H]. rewrite H1, H2 in Enull. discriminate.
    - apply decides_false. intros [[H1 H2] | [[H | H] _]].
      + rewrite H1, H2 in Enull. discriminate.
      + rewrite H in Ens. discriminate.
      + rewrite H in Ens. destruct n1; discriminate.
  Qed.

  Lemma name_empty_plain A : plainN cx A = true -> name_is_empty A = match A with [] => true | _ => false end.
  Proof.
    destruct A as [|t A]; [reflexivity|]. intros H. cbn [plainN forallb] in H. apply andb_true_iff in H.
    destruct H as [P _]. destruct (plain_inv _ _ P) as [n [s [-> [C _]]]].
    unfold name_is_empty. cbn [forallb]. unfold variant. cbn [tcname tgens]. rewrite sn_empty_plain by assumption. reflexivity.
  Qed.

  Lemma super_loop_plain f lf A : enough f lf -> plainN cx A = true ->
    forall B acc, plainN cx B = true ->
    decides (super_loop (tn_super f lf cx) A false B acc) (forall o, In o B -> exists s, In s A /\ tsup cx s o).
  Proof.
    intros He PA. induction B as [|o B IH]; intros acc PB.
    - apply decides_true. intros o [].
    - cbn [plainN forallb] in PB. apply andb_true_iff in PB. destruct PB as [Po PB].
      cbn [super_loop].
      destruct (mapM_ok_iff (fun s => tn_super f lf cx s o) (fun s => tsup cx s o) A) as [rs [Hrs Hex]].
      { intros s Hs. apply tn_super_plain; auto. unfold plainN in PA. rewrite forallb_forall in PA. auto. }
      rewrite Hrs. cbn [bind negb andb]. rewrite forallb_negb.
      destruct (existsb (fun b => b) rs) eqn:Eex; cbn [negb].
      + eapply decides_iff; [|exact (IH (acc || true) PB)]. split.
        * intros H o' [<- | Ho']; [apply Hex; reflexivity | auto].
        * intros H o' Ho'. apply H. right. exact Ho'.
      + apply decides_false. intros H. apply Hex in H; [discriminate | left; reflexivity].
  Qed.

  Theorem super_char A B : plainN cx A = true -> plainN cx B = true -> decides (super cx A B) (nsup cx A B).
  Proof.
    intros PA PB. unfold super, is_superset, name_super, mkN. cbn [members inter].
    rewrite (name_empty_plain A PA), (name_empty_plain B PB).
    assert (He : enough (hfuel cx A) (lfuel cx)).
    { (* plain names have no generic arguments to descend into: one parent chain, at most |cx| long, is all
         [hp] climbs; the factor 2 and the depth term of [hfuel] serve generic names *)
      unfold enough, hfuel, lfuel. split; [nia|lia]. }
    pose proof (super_loop_plain _ _ A He PA B false PB) as Hl. unfold nsup.
    destruct B as [|b B]; [destruct A as [|a A]|]; cbn [negb andb].
    - eapply decides_iff; [|exact Hl]. tauto.
    - apply decides_false. intros [H _]. discriminate (H eq_refl).
    - rewrite andb_false_r. eapply decides_iff; [|exact Hl]. split; [intros H; split; [discriminate|exact H]|tauto].
  Qed.
End Plain.


Lemma anc_trans cx a b c : anc cx a b -> anc cx b c -> anc cx a c.
Proof. intros Hab Hbc. induction Hbc; [exact Hab|]. econstructor; eauto. Qed.

Lemma specials_inv cx :
  specials_ok cx = true ->
  (exists ca, find_cls cx ANY = Some ca /\ cl_gen ca = [] /\ cl_parents ca = []) /\
  (exists cn, find_cls cx NONE = Some cn /\ cl_gen cn = [] /\ cl_parents cn = []) /\
  (forall c p, In c cx -> In p (cl_parents c) -> tcname p <> NONE).
Proof.
  unfold specials_ok. intros H.
  destruct (find_cls cx ANY) as [ca|]; [|discriminate].
  destruct (find_cls cx NONE) as [cn|]; [|discriminate].
  destruct (cl_gen ca) eqn:Ga; [|discriminate]. destruct (cl_parents ca) eqn:Pa; [|discriminate].
  destruct (cl_gen cn) eqn:Gn; [|discriminate]. destruct (cl_parents cn) eqn:Pn; [|discriminate].
  split; [exists ca; auto|]. split; [exists cn; auto|].
  intros c p Hc Hp. rewrite forallb_forall in H. specialize (H c Hc). rewrite forallb_forall in H.
  specialize (H p Hp). intros E. rewrite E in H. discriminate.
Qed.

Lemma anc_root cx a b c : find_cls cx b = Some c -> cl_parents c = [] -> anc cx a b -> a = b.
Proof.
  intros F P H. inversion H as [|a' b' c' p F' Hp _]; subst; [reflexivity|].
  rewrite F in F'. injection F' as <-. rewrite P in Hp. destruct Hp.
Qed.

Lemma anc_any cx a : specials_ok cx = true -> anc cx a ANY -> a = ANY.
Proof. intros Hs. destruct (specials_inv _ Hs) as [[ca [Fa [_ Pa]]] _]. exact (anc_root _ _ _ _ Fa Pa). Qed.

Lemma anc_none cx a : specials_ok cx = true -> anc cx a NONE -> a = NONE.
Proof. intros Hs. destruct (specials_inv _ Hs) as [_ [[cn [Fn [_ Pn]]] _]]. exact (anc_root _ _ _ _ Fn Pn). Qed.

Lemma anc_from_none cx c : specials_ok cx = true -> anc cx NONE c -> c = NONE.
Proof.
  intros Hs H. destruct (specials_inv _ Hs) as [_ [_ Hno]].
  remember NONE as a eqn:Ea. induction H as [|a b c' p F Hp Hanc IH]; [reflexivity|].
  subst a. specialize (IH eq_refl Hno). exfalso.
  destruct (find_cls_some _ _ _ F) as [_ Hin]. exact (Hno c' p Hin Hp IH).
Qed.

Lemma psup_trans cx a b c : specials_ok cx = true -> psup cx a b -> psup cx b c -> psup cx a c.
Proof.
  intros Hs [Hab | Hab] Hbc; [left; exact Hab|].
  destruct Hbc as [Hbc | Hbc].
  - subst b. left. apply (anc_any _ _ Hs Hab).
  - right. eapply anc_trans; eauto.
Qed.

Lemma tsup_refl cx t : tsup cx t t.
Proof. right. split; [destruct (tnull t); auto | apply psup_refl]. Qed.

Lemma tsup_trans cx t1 t2 t3 :
  specials_ok cx = true -> tsup cx t1 t2 -> tsup cx t2 t3 -> tsup cx t1 t3.
Proof.
  intros Hs H12 H23. unfold tsup in *. unfold is_null in *.
  destruct H23 as [[N2 E3] | [F23 P23]].
  - left. split; [|exact E3]. destruct H12 as [[N1 _] | [[N1 | N2'] _]]; auto. congruence.
  - destruct H12 as [[N1 E2] | [F12 P12]].
    + apply String.eqb_eq in E2. rewrite E2 in P23. destruct P23 as [P | P]; [discriminate P|].
      apply (anc_from_none _ _ Hs) in P. left. split; [exact N1|]. rewrite P. reflexivity.
    + right. split; [|eapply psup_trans; eauto].
      destruct F12 as [N1 | N2]; [left; exact N1|]. destruct F23 as [N2' | N3]; [congruence|right; exact N3].
Qed.

Lemma nsup_refl cx A : nsup cx A A.
Proof. split; [auto|]. intros o Ho. exists o. split; [exact Ho | apply tsup_refl]. Qed.

Lemma nsup_trans cx A B C : specials_ok cx = true -> nsup cx A B -> nsup cx B C -> nsup cx A C.
Proof.
  intros Hs [E1 H1] [E2 H2]. split; [auto|].
  intros o Ho. destruct (H2 o Ho) as [s [Hs2 T2]]. destruct (H1 s Hs2) as [s' [Hs1 T1]].
  exists s'. split; [exact Hs1 | eapply tsup_trans; eauto].
Qed.

Lemma nsup_single cx s o : nsup cx [s] [o] <-> tsup cx s o.
Proof.
  split.
  - intros [_ H]. destruct (H o (or_introl eq_refl)) as [s' [[<- | []] T]]. exact T.
  - intros T. split; [discriminate|]. intros o' [<- | []]. exists s. split; [left; reflexivity | exact T].
Qed.

Definition same_set (A B : name) : Prop := forall t, In t A <-> In t B.

Lemma same_set_nil A : same_set A [] -> A = [].
Proof. destruct A as [|a A]; [reflexivity|]. intros H. destruct (proj1 (H a) (or_introl eq_refl)). Qed.

Lemma nsup_same cx A A' B B' : same_set A A' -> same_set B B' -> nsup cx A B -> nsup cx A' B'.
Proof.
  intros SA SB [E H]. split.
  - intros ->. apply same_set_nil in SB. specialize (E SB). subst A. apply same_set_nil. intros t. symmetry. apply SA.
  - intros o Ho. apply SB in Ho. destruct (H o Ho) as [s [Hs T]]. exists s. split; [apply SA; exact Hs | exact T].
Qed.

Lemma plainN_same cx A A' : same_set A A' -> plainN cx A = true -> plainN cx A' = true.
Proof. unfold plainN. rewrite !forallb_forall. intros S H t Ht. apply H. apply S. exact Ht. Qed.

Lemma perm_same A A' : Permutation A A' -> same_set A A'.
Proof. intros P t. split; apply Permutation_in; [exact P | apply Permutation_sym; exact P]. Qed.

Section Laws.
  Variable cx : ctx.
  Hypothesis Hok : ctx_ok cx = true.
  Hypothesis Hacyc : acyclic cx.

  Lemma char A B : plainN cx A = true -> plainN cx B = true ->
    exists r, super cx A B = Ok r /\ (r = true <-> nsup cx A B).
  Proof. destruct Hacyc as [rank [Hb Hd]]. apply (super_char cx Hok rank Hb Hd). Qed.

  Lemma super_true A B : plainN cx A = true -> plainN cx B = true ->
    (super cx A B = Ok true <-> nsup cx A B).
  Proof. intros PA PB. apply decides_ok_true, char; assumption. Qed.

  Lemma super_false A B : plainN cx A = true -> plainN cx B = true ->
    (super cx A B = Ok false <-> ~ nsup cx A B).
  Proof. intros PA PB. apply decides_ok_false, char; assumption. Qed.

  Theorem super_total A B : plainN cx A = true -> plainN cx B = true ->
    super cx A B = Ok true \/ super cx A B = Ok false.
  Proof. intros PA PB. destruct (char A B PA PB) as [[|] [Hr _]]; auto. Qed.

  Theorem super_refl A : plainN cx A = true -> super cx A A = Ok true.
  Proof. intros PA. apply super_true; auto. apply nsup_refl. Qed.

  Theorem super_trans A B C :
    plainN cx A = true -> plainN cx B = true -> plainN cx C = true ->
    super cx A B = Ok true -> super cx B C = Ok true -> super cx A C = Ok true.
  Proof.
    intros PA PB PC H1 H2. apply super_true in H1; auto. apply super_true in H2; auto.
    apply super_true; auto. eapply nsup_trans; eauto. apply (Hspecial cx Hok).
  Qed.

  Lemma plain_any : is_plain_class cx ANY = true.
  Proof.
    destruct (specials_inv _ (Hspecial cx Hok)) as [[ca [Fa [Ga _]]] _]. unfold is_plain_class. rewrite Fa, Ga. reflexivity.
  Qed.

  Lemma plain_cls a : is_plain_class cx a = true -> plainN cx [cls_ty a] = true.
  Proof. intros H. cbn. unfold plain. cbn [tgens tcname tnull cls_ty]. rewrite H. reflexivity. Qed.

  Theorem any_top A :
    plainN cx A = true -> A <> [] -> forallb (fun t => negb (tnull t)) A = true ->
    super cx [cls_ty ANY] A = Ok true.
  Proof.
    intros PA Hne Hnn. apply super_true; auto using plain_cls, plain_any.
    split; [intros ->; contradiction|]. intros o Ho. exists (cls_ty ANY). split; [left; reflexivity|].
    right. rewrite forallb_forall in Hnn. specialize (Hnn o Ho). apply negb_true_iff in Hnn.
    split; [right; exact Hnn | left; reflexivity].
  Qed.

  Theorem ancestor a c :
    is_plain_class cx a = true -> is_plain_class cx c = true ->
    anc cx a c -> super cx [cls_ty a] [cls_ty c] = Ok true.
  Proof.
    intros Pa Pc H. apply super_true; auto using plain_cls. apply nsup_single.
    right. split; [right; reflexivity | right; exact H].
  Qed.

  Theorem unrelated a c :
    is_plain_class cx a = true -> is_plain_class cx c = true ->
    ~ anc cx a c -> a <> ANY -> super cx [cls_ty a] [cls_ty c] = Ok false.
  Proof.
    intros Pa Pc Hn Hany. apply super_false; auto using plain_cls. rewrite nsup_single.
    intros [[N _] | [_ [P | P]]]; [discriminate | contradiction | contradiction].
  Qed.

  Lemma plain_nullable t : is_plain_class cx t = true -> t <> NONE -> plainN cx [TN true t []] = true.
  Proof.
    intros H Hn. cbn. unfold plain, is_null. cbn [tgens tcname tnull]. rewrite H.
    destruct (String.eqb t NONE) eqn:E; [apply String.eqb_eq in E; contradiction | reflexivity].
  Qed.

  Lemma plain_none : is_plain_class cx NONE = true.
  Proof.
    destruct (specials_inv _ (Hspecial cx Hok)) as [_ [[cn [Fn [Gn _]]] _]]. unfold is_plain_class. rewrite Fn, Gn. reflexivity.
  Qed.

  (** the four nullable rules ([C06_nullable_rule] of props/C20.v) *)
  Theorem nullable_accepts_none t :
    is_plain_class cx t = true -> t <> NONE -> super cx [TN true t []] [cls_ty NONE] = Ok true.
  Proof.
    intros P Hn. apply super_true; auto using plain_nullable, plain_cls, plain_none. apply nsup_single.
    left. split; reflexivity.
  Qed.

  Theorem nullable_accepts_base t :
    is_plain_class cx t = true -> t <> NONE -> super cx [TN true t []] [cls_ty t] = Ok true.
  Proof.
    intros P Hn. apply super_true; auto using plain_nullable, plain_cls. apply nsup_single.
    right. split; [left; reflexivity | apply psup_refl].
  Qed.

  Theorem base_rejects_nullable t u :
    is_plain_class cx t = true -> is_plain_class cx u = true -> u <> NONE ->
    super cx [cls_ty t] [TN true u []] = Ok false.
  Proof.
    intros P Pu Hn. apply super_false; auto using plain_nullable, plain_cls. rewrite nsup_single.
    intros [[N _] | [[N | N] _]]; discriminate.
  Qed.

  Theorem base_rejects_none t :
    is_plain_class cx t = true -> t <> NONE -> t <> ANY -> super cx [cls_ty t] [cls_ty NONE] = Ok false.
  Proof.
    intros P Hn Ha. apply super_false; auto using plain_cls, plain_none. rewrite nsup_single.
    intros [[N _] | [_ [E | E]]]; [discriminate | contradiction |].
    apply (anc_none _ _ (Hspecial cx Hok)) in E. contradiction.
  Qed.

  Theorem super_same_set A A' B B' :
    plainN cx A = true -> plainN cx B = true -> same_set A A' -> same_set B B' ->
    super cx A B = super cx A' B'.
  Proof.
    intros PA PB SA SB.
    destruct (char A B PA PB) as [r [-> Hr]].
    destruct (char A' B' (plainN_same _ _ _ SA PA) (plainN_same _ _ _ SB PB)) as [r' [-> Hr']].
    f_equal. apply eq_true_iff_eq. rewrite Hr, Hr'.
    split; apply nsup_same; [exact SA | exact SB | intros t; symmetry; apply SA | intros t; symmetry; apply SB].
  Qed.

  Theorem order_irrelevant A A' B B' :
    plainN cx A = true -> plainN cx B = true -> Permutation A A' -> Permutation B B' ->
    super cx A B = super cx A' B'.
  Proof. intros PA PB P1 P2. apply super_same_set; auto using perm_same. Qed.
End Laws.

Local Open Scope list_scope.

Lemma plain_flat cx l : plainN cx l = true -> flat l.
Proof.
  unfold plainN. rewrite forallb_forall. intros H t Ht. specialize (H t Ht).
  destruct (plain_inv _ _ H) as [n [s [-> _]]]. reflexivity.
Qed.

Lemma existsb_same {A : Type} (f : A -> bool) l l' :
  (forall x, In x l <-> In x l') -> existsb f l = existsb f l'.
Proof.
  intros S. apply eq_true_iff_eq. rewrite !existsb_exists.
  split; intros [x [Hx Fx]]; exists x; (split; [apply S; exact Hx | exact Fx]).
Qed.

Definition mixed (ns : name) : bool := existsb is_null ns && Nat.ltb 1 (List.length ns).
Definition mixes (a b : name) : bool := mixed (nub ty_eqb (a ++ b)).

Lemma union_unfold a b :
  union_members a b =
  if mixes a b then nub ty_eqb (map as_nullable (filter (fun t => negb (is_null t)) (nub ty_eqb (a ++ b))))
  else nub ty_eqb (a ++ b).
Proof. reflexivity. Qed.

Lemma plain_null cx t : plain cx t = true -> is_null t = true -> t = cls_ty NONE.
Proof.
  intros P N. destruct (plain_inv _ _ P) as [n [s [-> [_ Hn]]]].
  unfold is_null in N. cbn [tcname] in N. apply String.eqb_eq in N. subst s.
  destruct n; [exfalso; apply Hn; reflexivity | reflexivity].
Qed.

(** among plain members only [None] is null, so two null members would be a duplicate *)
Lemma mixed_eq cx ns : plainN cx ns = true -> NoDup ns ->
  mixed ns = existsb is_null ns && existsb (fun t => negb (is_null t)) ns.
Proof.
  intros P ND. unfold mixed. destruct ns as [|x [|y r]]; [reflexivity | cbn; destruct (is_null x); reflexivity |].
  cbn [existsb length Nat.ltb Nat.leb]. destruct (is_null x) eqn:Nx, (is_null y) eqn:Ny; try reflexivity.
  exfalso. unfold plainN in P. rewrite forallb_forall in P.
  apply plain_null with (cx := cx) in Nx; [|apply P; left; reflexivity].
  apply plain_null with (cx := cx) in Ny; [|apply P; right; left; reflexivity].
  inversion ND as [|? ? Hnin _]. apply Hnin. left. congruence.
Qed.

Section UnionLaws.
  Variable cx : ctx.
  Hypothesis Hok : ctx_ok cx = true.
  Hypothesis Hacyc : acyclic cx.

  Lemma plain_as_nullable t : plain cx t = true -> is_null t = false -> plain cx (as_nullable t) = true.
  Proof.
    intros P N. destruct (plain_inv _ _ P) as [n [s [-> _]]].
    unfold plain in *. unfold is_null in *. cbn [as_nullable tgens tcname tnull] in *.
    rewrite N. rewrite andb_false_r. cbn [negb]. rewrite andb_true_r.
    apply andb_true_iff in P. destruct P as [P _]. exact P.
  Qed.

  Section Sides.
    Variables A B : name.
    Hypothesis PA : plainN cx A = true.
    Hypothesis PB : plainN cx B = true.

    Lemma flat_app : flat (A ++ B).
    Proof. intros t Ht. apply in_app_or in Ht. destruct Ht; [apply (plain_flat cx A) | apply (plain_flat cx B)]; assumption. Qed.

    Lemma mixes_eq : mixes A B = existsb is_null (A ++ B) && existsb (fun t => negb (is_null t)) (A ++ B).
    Proof.
      assert (S : same_set (A ++ B) (nub ty_eqb (A ++ B))) by (intros x; symmetry; apply in_nub_flat, flat_app).
      unfold mixes. rewrite (mixed_eq cx).
      - f_equal; apply existsb_same; intros x; symmetry; apply S.
      - apply (plainN_same _ _ _ S). unfold plainN in *. rewrite forallb_app, PA, PB. reflexivity.
      - apply nodup_nub_flat, flat_app.
    Qed.

    Lemma union_in_nomix x : mixes A B = false -> (In x (union_members A B) <-> In x A \/ In x B).
    Proof. intros M. rewrite union_unfold, M, in_nub_flat by exact flat_app. apply in_app_iff. Qed.

    Lemma union_in_mix y : mixes A B = true ->
      (In y (union_members A B) <-> exists x, (In x A \/ In x B) /\ is_null x = false /\ y = as_nullable x).
    Proof.
      intros M. rewrite union_unfold, M, in_nub_flat.
      2:{ intros t Ht. apply in_map_iff in Ht as [[n s g] [<- Hx]]. apply filter_In in Hx as [Hx _].
          apply nub_in in Hx. exact (flat_app _ Hx). }
      rewrite in_map_iff. split.
      - intros [x [<- Hx]]. apply filter_In in Hx. destruct Hx as [Hx Hn]. apply nub_in in Hx.
        exists x. split; [apply in_app_iff; exact Hx|]. split; [apply negb_true_iff; exact Hn | reflexivity].
      - intros [x [Hx [Hn ->]]]. exists x. split; [reflexivity|]. apply filter_In. split.
        + apply in_nub_flat; [exact flat_app | apply in_app_iff; exact Hx].
        + rewrite Hn. reflexivity.
    Qed.

    Lemma union_plain : plainN cx (union_members A B) = true.
    Proof.
      apply forallb_forall. intros y Hy.
      pose proof (proj1 (forallb_forall _ _) PA) as HA. pose proof (proj1 (forallb_forall _ _) PB) as HB.
      destruct (mixes A B) eqn:M.
      - apply (union_in_mix _ M) in Hy as [x [Hx [Hn ->]]]. apply plain_as_nullable; [destruct Hx; auto | exact Hn].
      - apply (union_in_nomix _ M) in Hy. destruct Hy; auto.
    Qed.

    Lemma union_covers o : In o A \/ In o B -> exists s, In s (union_members A B) /\ tsup cx s o.
    Proof.
      intros Ho. destruct (mixes A B) eqn:M.
      - destruct (is_null o) eqn:No.
        + (* a null member: covered by any member made nullable, and one exists *)
          pose proof M as Mx. rewrite mixes_eq in Mx. apply andb_true_iff in Mx as [_ Mx].
          apply existsb_exists in Mx as [x [Hx Nx]]. apply negb_true_iff in Nx. apply in_app_or in Hx.
          exists (as_nullable x). split; [apply (union_in_mix _ M); exists x; auto|].
          left. split; [destruct x; reflexivity | exact No].
        + exists (as_nullable o). split; [apply (union_in_mix _ M); exists o; auto|].
          destruct o as [n s g]. right. split; [left; reflexivity | apply psup_refl].
      - exists o. split; [|apply tsup_refl]. apply (union_in_nomix _ M). exact Ho.
    Qed.

    Lemma nsup_union C : C <> [] -> incl C (A ++ B) -> nsup cx (union_members A B) C.
    Proof.
      intros Hne HC. split; [intros E; contradiction|]. intros o Ho. apply union_covers, in_app_or, HC, Ho.
    Qed.

    Lemma nsup_union_bwd U :
      mixes A B = false \/ forallb tnull U = true -> nsup cx U A -> nsup cx U B -> nsup cx U (union_members A B).
    Proof.
      intros Hk [EA HA] [EB HB]. split.
      - intros E. apply EA, same_set_nil. intros a. split; [|intros []]. intros Ha.
        destruct (union_covers a (or_introl Ha)) as [s [Hs _]]. rewrite E in Hs. exact Hs.
      - intros o Ho. destruct (mixes A B) eqn:M.
        + (* a member made nullable is accepted by what accepted it before, if that is nullable *)
          destruct Hk as [Hk | Hk]; [discriminate|].
          apply (union_in_mix _ M) in Ho. destruct Ho as [x [Hx [Nx ->]]].
          assert (Hc : exists s, In s U /\ tsup cx s x) by (destruct Hx; auto).
          destruct Hc as [s [Hs T]]. exists s. split; [exact Hs|].
          rewrite forallb_forall in Hk. specialize (Hk s Hs).
          destruct T as [[_ N] | [_ P]]; [congruence|].
          right. split; [left; exact Hk|]. destruct x as [n sx g]. exact P.
        + apply (union_in_nomix _ M) in Ho. destruct Ho; auto.
    Qed.

    Lemma union_nonull : existsb is_null (A ++ B) = false -> forall x, In x (union_members A B) <-> In x (A ++ B).
    Proof. intros H x. rewrite in_app_iff. apply union_in_nomix. rewrite mixes_eq, H. reflexivity. Qed.
  End Sides.

  Theorem union_upper A B :
    plainN cx A = true -> plainN cx B = true -> A <> [] -> B <> [] ->
    super cx (union_members A B) A = Ok true /\ super cx (union_members A B) B = Ok true.
  Proof.
    intros PA PB HA HB. split; apply (super_true cx Hok Hacyc); auto using union_plain, nsup_union, incl_appl, incl_appr, incl_refl.
  Qed.

  Theorem union_member_fwd U A B :
    plainN cx U = true -> plainN cx A = true -> plainN cx B = true -> A <> [] -> B <> [] ->
    super cx U (union_members A B) = Ok true -> super cx U A = Ok true /\ super cx U B = Ok true.
  Proof.
    intros PU PA PB HA HB H. destruct (union_upper A B PA PB HA HB).
    split; apply (super_trans cx Hok Hacyc U (union_members A B)); auto using union_plain.
  Qed.

  (** the converse of [union_member_fwd] fails when the union rewrites members to nullable and [U] has a
      member that is not (D23) *)
  Theorem union_member_bwd_outside_known U A B :
    plainN cx U = true -> plainN cx A = true -> plainN cx B = true ->
    mixes A B = false \/ forallb tnull U = true ->
    super cx U A = Ok true -> super cx U B = Ok true -> super cx U (union_members A B) = Ok true.
  Proof.
    intros PU PA PB Hk H1 H2. apply (super_true cx Hok Hacyc) in H1; auto. apply (super_true cx Hok Hacyc) in H2; auto.
    apply (super_true cx Hok Hacyc); auto using union_plain, nsup_union_bwd.
  Qed.

  Lemma mixes_comm A B : plainN cx A = true -> plainN cx B = true -> mixes A B = mixes B A.
  Proof.
    intros PA PB. rewrite !mixes_eq, !existsb_app by assumption. f_equal; apply orb_comm.
  Qed.

  Theorem union_comm A B : plainN cx A = true -> plainN cx B = true ->
    same_set (union_members A B) (union_members B A).
  Proof.
    intros PA PB t. pose proof (mixes_comm A B PA PB) as C. destruct (mixes A B) eqn:M; symmetry in C.
    - rewrite (union_in_mix A B PA PB _ M), (union_in_mix B A PB PA _ C).
      split; intros [x [Hx R]]; exists x; (split; [tauto | exact R]).
    - rewrite (union_in_nomix A B PA PB _ M), (union_in_nomix B A PB PA _ C). tauto.
  Qed.

  Theorem union_idem_outside_known A : plainN cx A = true -> mixes A A = false ->
    same_set (union_members A A) A.
  Proof. intros PA M t. rewrite (union_in_nomix A A PA PA _ M). tauto. Qed.

  Theorem union_assoc_outside_known A B C :
    plainN cx A = true -> plainN cx B = true -> plainN cx C = true ->
    existsb is_null (A ++ B ++ C) = false ->
    same_set (union_members (union_members A B) C) (union_members A (union_members B C)).
  Proof.
    intros PA PB PC Hn.
    rewrite !existsb_app in Hn. apply orb_false_iff in Hn as [NA Hn]. apply orb_false_iff in Hn as [NB NC].
    assert (NAB : existsb is_null (A ++ B) = false) by (rewrite existsb_app, NA, NB; reflexivity).
    assert (NBC : existsb is_null (B ++ C) = false) by (rewrite existsb_app, NB, NC; reflexivity).
    pose proof (union_nonull A B PA PB NAB) as UAB. pose proof (union_nonull B C PB PC NBC) as UBC.
    intros t. rewrite (union_nonull _ C (union_plain _ _ PA PB) PC), (union_nonull A _ PA (union_plain _ _ PB PC)).
    - rewrite !in_app_iff, UAB, UBC, !in_app_iff. tauto.
    - rewrite existsb_app, (existsb_same is_null _ _ UBC), NA, NBC. reflexivity.
    - rewrite existsb_app, (existsb_same is_null _ _ UAB), NAB, NC. reflexivity.
  Qed.
End UnionLaws.


Definition hstep (g : ty -> option nat) (p : ty) (acc : option nat) : option nat :=
  match g p, acc with
  | Some h, Some a => Some (Nat.max (S h) a)
  | _, _ => None
  end.

Lemma height_S f cx s :
  height (S f) cx s =
  match find_cls cx s with
  | None => Some 0
  | Some c => fold_right (hstep (fun p => height f cx (tcname p))) (Some 0) (cl_parents c)
  end.
Proof. reflexivity. Qed.

Lemma hfold_inv g ps h :
  fold_right (hstep g) (Some 0) ps = Some h -> forall p, In p ps -> exists hp, g p = Some hp /\ hp < h.
Proof.
  revert h. induction ps as [|q ps IH]; intros h H p Hp; [destruct Hp|].
  cbn [fold_right] in H. unfold hstep at 1 in H.
  destruct (g q) as [hq|] eqn:Gq; [|discriminate].
  destruct (fold_right (hstep g) (Some 0) ps) as [a|] eqn:Fa; [|discriminate].
  injection H as <-. destruct Hp as [<- | Hp].
  - exists hq. split; [exact Gq | destruct a; lia].
  - destruct (IH a eq_refl p Hp) as [hp [G L]]. exists hp. split; [exact G | destruct a; lia].
Qed.

Lemma hfold_mono g g' ps h n :
  (forall p hp, In p ps -> g p = Some hp -> hp < n /\ g' p = Some hp) ->
  fold_right (hstep g) (Some 0) ps = Some h -> h <= n /\ fold_right (hstep g') (Some 0) ps = Some h.
Proof.
  revert h. induction ps as [|q ps IH]; intros h E H.
  - injection H as <-. split; [lia | reflexivity].
  - cbn [fold_right] in *. unfold hstep at 1 in H. unfold hstep at 1.
    destruct (g q) as [hq|] eqn:Gq; [|discriminate].
    destruct (fold_right (hstep g) (Some 0) ps) as [a|] eqn:Fa; [|discriminate].
    injection H as <-. destruct (E q hq (or_introl eq_refl) Gq) as [Lq ->].
    destruct (IH a) as [La ->]; [intros p hp Hp; apply E; right; exact Hp | reflexivity |].
    split; [destruct a; lia | reflexivity].
Qed.

Lemma height_mono f cx : forall s h, height f cx s = Some h -> h < f /\ height (S f) cx s = Some h.
Proof.
  induction f as [|f IH]; intros s h H; [discriminate|].
  rewrite height_S in H. rewrite (height_S (S f)). destruct (find_cls cx s) as [c|]; [|injection H as <-; split; [lia | reflexivity]].
  destruct (hfold_mono _ (fun p => height (S f) cx (tcname p)) _ _ f (fun p hp _ Hp => IH _ _ Hp) H) as [L E].
  split; [lia | exact E].
Qed.

Lemma find_cls_unique cx c :
  uniqueb (map cl_name cx) = true -> In c cx -> find_cls cx (cl_name c) = Some c.
Proof.
  induction cx as [|d cx IH]; intros U Hc; [destruct Hc|].
  cbn [map uniqueb] in U. apply andb_true_iff in U. destruct U as [Hn U].
  unfold find_cls. cbn [find]. destruct Hc as [<- | Hc].
  - rewrite String.eqb_refl. reflexivity.
  - destruct (String.eqb (cl_name d) (cl_name c)) eqn:E; [|apply IH; assumption].
    exfalso. apply negb_true_iff in Hn. apply String.eqb_eq in E.
    assert (existsb (String.eqb (cl_name d)) (map cl_name cx) = true); [|congruence].
    apply existsb_exists. exists (cl_name c). split; [apply in_map; exact Hc | rewrite E; apply String.eqb_refl].
Qed.

Theorem acyclicb_acyclic cx :
  uniqueb (map cl_name cx) = true -> acyclicb cx = true -> acyclic cx.
Proof.
  intros U H. unfold acyclicb in H. rewrite forallb_forall in H.
  exists (fun s => match height (List.length cx) cx s with Some h => h | None => 0 end).
  split.
  - intros c Hc. specialize (H c Hc). destruct (height (List.length cx) cx (cl_name c)) as [h|] eqn:E; [|discriminate].
    apply height_mono in E. apply E.
  - intros c p Hc Hp. specialize (H c Hc).
    destruct (height (List.length cx) cx (cl_name c)) as [h|] eqn:E; [|discriminate].
    destruct (List.length cx) as [|n] eqn:L; [discriminate|].
    rewrite height_S in E. rewrite (find_cls_unique _ _ U Hc) in E.
    destruct (hfold_inv _ _ _ E p Hp) as [hp [G Lt]].
    apply height_mono in G as [_ ->]. exact Lt.
Qed.

Theorem ctx_acyclic cx : ctx_ok cx = true -> acyclicb cx = true -> acyclic cx.
Proof.
  intros H. apply acyclicb_acyclic, ctx_ok_inv, H.
Qed.

(** a class that inherits from itself: class lookup does not terminate, whatever the fuel (D8) *)
Definition cyclic_table : ctx := [{| cl_name := "A"; cl_gen := []; cl_parents := [cls_ty "A"] |}].

Theorem cyclic_diverges : forall f, lookup f cyclic_table ("A", []) = Div.
Proof.
  (* one step of [lookup] on this table asks for the parent "A" again; [fold name] because evaluation leaves the
     empty argument list at type [list (list ty)], where the induction hypothesis has [list name] *)
  induction f as [|f IH]; [reflexivity|]. cbn. unfold variant. cbn [tcname tgens]. fold name. rewrite IH. reflexivity.
Qed.
