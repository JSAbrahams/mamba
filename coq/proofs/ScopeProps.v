(** The checker of model/Scope.v is sound for its trace semantics: [sim] relates the environment to the
    scope stack replayed over a trace, and each property is one induction over the runs ([runs_var_ok]
    for C07 and C09, [runs_raise_ok] for C08). *)
From Coq Require Import List Bool Arith PeanoNat.
Import ListNotations.
From MambaModel Require Import model.Scope.

Set Implicit Arguments.

(** invert [H], substitute the equations it yields, clear it *)
Ltac inv H := inversion H; subst; clear H.

(** [H : a && b = true] becomes [N : a = true] and [H : b = true], again while [b] is a conjunction *)
Ltac bsplit H :=
  repeat match type of H with
  | _ && _ = true => let A := fresh "N" in apply andb_prop in H; destruct H as [A H]
  end.

(** [destr H]: destruct every scrutinee of a match or if at the head of [H : .. = _]; branches that
    make [H] absurd go.  The proofs refer to the names made here: the equations of the scrutinees of
    [H] are [E], [E0], [E1], .. in their order, the components of a result pair [ce], [cg] ([ce0],
    [cg0], ..). *)
Ltac destr H :=
  repeat match type of H with
  | match ?x with _ => _ end = _ =>
      first [ is_var x; let ea := fresh "ce" in let ga := fresh "cg" in destruct x as [ea ga]
            | let E := fresh "E" in destruct x eqn:E; try discriminate ]
  | (if ?x then _ else _) = _ => let E := fresh "E" in destruct x eqn:E; try discriminate
  end.

(** one layer of the statement checkers and the mode constants unfolded in [H], then [destr H] *)
Ltac chk H :=
  cbn [check_stmt check_stmts check_arms check_harms m_restore m_methods repaired restored as_is] in H;
  destr H.

Lemma mem_In x l : mem x l = true <-> In x l.
Proof.
  induction l as [|y l IH]; cbn; [split; [discriminate|tauto]|].
  rewrite orb_true_iff, Nat.eqb_eq, IH. split; (intros [H|H]; [left; congruence|right; exact H]).
Qed.

Definition lookup (e : env) (x : var) : option bool :=
  match alook x (e_map e) with
  | Some o => klook (x, o) (e_vars e)
  | None => None
  end.

Definition WF (e : env) : Prop :=
  forall x o, klook (x, o) (e_vars e) <> None -> alook x (e_map e) <> None.

Lemma WF_env0 : WF env0.
Proof. intros x o H. cbn in H. congruence. Qed.

Lemma get_var_lookup e g x : WF e -> get_var e g x = lookup e x.
Proof.
  intros W. unfold get_var, get_offset, lookup.
  destruct (alook x (e_map e)) eqn:E; [reflexivity|].
  match goal with |- ?k = None => destruct k eqn:K; [|reflexivity] end.
  exfalso. refine (W x _ (fun N => _) E). rewrite N in K. discriminate.
Qed.

Lemma keyb_refl k : keyb k k = true.
Proof. unfold keyb. rewrite !Nat.eqb_refl. reflexivity. Qed.

Lemma keyb_fst_neq a b : fst a <> fst b -> keyb a b = false.
Proof. intros H. unfold keyb. apply Nat.eqb_neq in H. rewrite H. reflexivity. Qed.

Lemma lookup_define e g m x y :
  lookup (fst (define m (e, g) x)) y = if y =? x then Some m else lookup e y.
Proof.
  unfold define, insert_var, lookup. cbn. destruct (y =? x) eqn:E.
  - apply Nat.eqb_eq in E. subst. cbn. rewrite keyb_refl. reflexivity.
  - destruct (alook y (e_map e)); [|reflexivity]. unfold keyb at 1. cbn. rewrite E. reflexivity.
Qed.

Lemma get_var_define e g g' m x y :
  get_var (fst (define m (e, g) x)) g' y = if y =? x then Some m else get_var e g' y.
Proof.
  unfold define, insert_var, get_var, get_offset. cbn.
  destruct (y =? x) eqn:E.
  - apply Nat.eqb_eq in E. subst. cbn. rewrite keyb_refl. reflexivity.
  - unfold keyb at 1. cbn. rewrite E. reflexivity.
Qed.

Lemma WF_insert e g m x : WF e -> WF (insert_var e g m x).
Proof.
  intros W y o H. unfold insert_var in *. cbn in *.
  destruct (y =? x) eqn:E; [discriminate|].
  apply (W y o). rewrite keyb_fst_neq in H; [exact H|].
  cbn. apply Nat.eqb_neq in E. exact E.
Qed.

Lemma check_params_WF ps : forall e g e1 g1, check_params e g ps = Ok (e1, g1) -> WF e -> WF e1.
Proof.
  induction ps as [|[m x] ps IH]; intros e g e1 g1 C W; cbn [check_params] in C.
  - injection C as <- <-. exact W.
  - destr C. eapply IH; [exact C|]. apply WF_insert. exact W.
Qed.

Definition same_scope (e e' : env) : Prop := e_vars e = e_vars e' /\ e_map e = e_map e'.

Definition same_guard (e e' : env) : Prop := e_caught e = e_caught e' /\ e_in_fun e = e_in_fun e'.

Lemma same_scope_sym a b : same_scope a b -> same_scope b a.
Proof. intros [A B]. split; congruence. Qed.
Lemma same_scope_lookup e e' x : same_scope e e' -> lookup e x = lookup e' x.
Proof. intros [A B]. unfold lookup. rewrite A, B. reflexivity. Qed.
Lemma same_scope_get e e' g x : same_scope e e' -> get_var e g x = get_var e' g x.
Proof. intros [A B]. unfold get_var, get_offset. rewrite A, B. reflexivity. Qed.

(** The newest definition is the visible one and the others are untouched whatever the builder's
    global mapping holds: it keeps growing while the environment is put back after a branch. *)
Theorem shadowing_sound e g m x :
  WF e ->
  let e' := fst (define m (e, g) x) in
  WF e' /\
  get_var e' (snd (define m (e, g) x)) x = Some m /\
  (forall g', get_var e' g' x = Some m) /\
  (forall y g', y <> x -> get_var e' g' y = lookup e y).
Proof.
  intros W e'. split; [apply WF_insert; exact W|].
  assert (G : forall g' y, get_var e' g' y = if y =? x then Some m else lookup e y).
  { intros g' y. unfold e'. rewrite get_var_define, get_var_lookup by exact W. reflexivity. }
  split; [|split]; intros; rewrite G.
  - rewrite Nat.eqb_refl. reflexivity.
  - rewrite Nat.eqb_refl. reflexivity.
  - apply Nat.eqb_neq in H. rewrite H. reflexivity.
Qed.

(** [sim] reads only [e_vars] and [e_map] (through [get_var]); the setters of the other fields leave it
    as it is, by computation. *)
Definition sim (e : env) (st : stack) : Prop := forall g x, get_var e g x = vis st x.

Lemma sim_env0 : sim env0 [[]].
Proof. intros g x. reflexivity. Qed.

Lemma sim_scope e e' st : same_scope e e' -> sim e st -> sim e' st.
Proof. intros S H g x. rewrite <- (same_scope_get g x S). apply H. Qed.

Lemma sim_push e st : sim e st -> sim e ([] :: st).
Proof. intros H g x. apply H. Qed.

Lemma sim_vis e st g x b : sim e st -> get_var e g x = Some b -> vis st x = Some b.
Proof. intros S H. rewrite <- (S g x). exact H. Qed.
Arguments sim_vis [e st g x b].

Lemma sim_define e g m x st : sim e st -> sim (fst (define m (e, g) x)) (step st (EvDef m x)).
Proof. intros S g' y. rewrite get_var_define, (S g' y). destruct st; cbn; destruct (y =? x); reflexivity. Qed.

Lemma run_app st a b : run st (a ++ b) = run (run st a) b.
Proof. apply fold_left_app. Qed.
Lemma frun_app fs a b : frun fs (a ++ b) = frun (frun fs a) b.
Proof. apply fold_left_app. Qed.

Lemma all_events_app P st fs a b :
  all_events P st fs (a ++ b) <-> all_events P st fs a /\ all_events P (run st a) (frun fs a) b.
Proof.
  revert st fs. induction a as [|ev a IH]; intros st fs; cbn.
  - tauto.
  - rewrite IH. tauto.
Qed.

Lemma all_events_and P Q st fs t :
  all_events (fun s f ev => P s f ev /\ Q s f ev) st fs t <-> all_events P st fs t /\ all_events Q st fs t.
Proof.
  revert st fs. induction t as [|ev t IH]; intros st fs; cbn; [tauto|]. rewrite IH. tauto.
Qed.

Lemma all_events_impl (P Q : stack -> list fname -> event -> Prop) st fs t :
  (forall s f ev, P s f ev -> Q s f ev) -> all_events P st fs t -> all_events Q st fs t.
Proof.
  intros H. revert st fs. induction t as [|ev t IH]; intros st fs; cbn; [tauto|].
  intros [A B]. split; [apply H; exact A|apply IH; exact B].
Qed.

Lemma all_events_const (P : event -> Prop) st fs t : all_events (fun _ _ => P) st fs t <-> Forall P t.
Proof.
  revert st fs. induction t as [|ev t IH]; intros st fs; cbn; [split; auto|]. rewrite IH. split.
  - intros [A B]. constructor; assumption.
  - intros F. inversion F; subst. split; assumption.
Qed.

Lemma all_events_In P st fs t ev : all_events P st fs t -> In ev t -> exists st' fs', P st' fs' ev.
Proof.
  revert st fs. induction t as [|ev' t IH]; intros st fs A HI; [destruct HI|].
  destruct A as [A B], HI as [->|HI]; [eauto|eapply IH; eassumption].
Qed.
Arguments all_events_In [P st fs t ev].

Definition inert_ev (ev : event) : Prop :=
  match ev with EvPush | EvPop | EvDef _ _ | EvDefF _ => False | _ => True end.
Definition inert (t : trace) : Prop := Forall inert_ev t.

Lemma inert_step st fs ev : inert_ev ev -> step st ev = st /\ fstep fs ev = fs.
Proof. destruct ev; cbn; try contradiction; auto. Qed.

Lemma inert_run st t : inert t -> run st t = st.
Proof.
  intros H. revert st. induction H as [|ev t E _ IH]; intros st; [reflexivity|].
  cbn. rewrite (proj1 (inert_step st [] ev E)). apply IH.
Qed.
Definition nodf (t : trace) : Prop := Forall (fun ev => match ev with EvDefF _ => False | _ => True end) t.

Lemma nodf_frun fs t : nodf t -> frun fs t = fs.
Proof.
  intros H. revert fs. induction H as [|ev t E _ IH]; intros fs; [reflexivity|].
  cbn. rewrite <- (IH fs) at 2. destruct ev; cbn in E; try contradiction; reflexivity.
Qed.

Lemma inert_frun fs t : inert t -> frun fs t = fs.
Proof. intros H. apply nodf_frun. eapply Forall_impl; [|exact H]. intros ev; destruct ev; cbn; tauto. Qed.

Lemma all_events_inert P st fs t : inert t -> (all_events P st fs t <-> Forall (P st fs) t).
Proof.
  intros H. induction H as [|ev t E I IH]; cbn.
  - split; auto.
  - destruct (inert_step st fs ev E) as [-> ->]. rewrite IH. split.
    + intros [A B]. constructor; assumption.
    + intros F. inversion F; subst. split; assumption.
Qed.

Lemma all_events_cond P st fs tc t :
  inert tc -> Forall (P st fs) tc -> all_events P st fs t -> all_events P st fs (tc ++ t).
Proof.
  intros I F A. apply all_events_app. rewrite inert_run, inert_frun by exact I.
  split; [apply all_events_inert; assumption|exact A].
Qed.
Arguments all_events_cond [P st fs tc t].

(** the properties constrain reads, writes and raises only *)
Definition lax (P : stack -> list fname -> event -> Prop) : Prop :=
  forall st fs ev, ~ inert_ev ev -> P st fs ev.

Definition is_def (ev : event) : Prop := match ev with EvDef _ _ => True | _ => False end.

Lemma defs_is_def m p : Forall is_def (defs m p).
Proof. induction p; constructor; [exact I|assumption]. Qed.
Lemma pdefs_is_def ps : Forall is_def (pdefs ps).
Proof. induction ps; constructor; [exact I|assumption]. Qed.
Lemma bdef_is_def b : Forall is_def (bdef b).
Proof. destruct b as [[m x]|]; repeat constructor. Qed.
Lemma predecl_is_def x : Forall is_def (predecl x).
Proof. destruct x; try constructor. apply defs_is_def. Qed.

Lemma is_def_lax P st fs ev : lax P -> is_def ev -> P st fs ev.
Proof. intros L D. apply L. destruct ev; try contradiction. exact (fun F => F). Qed.

Lemma all_events_defs P st fs t : lax P -> Forall is_def t -> all_events P st fs t.
Proof.
  intros L H. revert st fs. induction H as [|ev t E _ IH]; intros st fs; [exact I|].
  split; [exact (is_def_lax st fs ev L E)|apply IH].
Qed.
Arguments all_events_defs [P st fs t].

Lemma lax_defs P st fs t : lax P -> Forall is_def t -> Forall (P st fs) t.
Proof. intros L H. eapply Forall_impl; [|exact H]. intros ev. apply is_def_lax, L. Qed.
Arguments lax_defs [P st fs t].

Lemma all_events_scoped P st fs t : lax P -> all_events P ([] :: st) fs t -> all_events P st fs (scoped t).
Proof.
  intros L H. split; [apply L; exact (fun F => F)|].
  apply all_events_app. split; [exact H|]. split; [apply L; exact (fun F => F)|exact I].
Qed.
Arguments all_events_scoped [P st fs t].

Lemma defs_frun fs t : Forall is_def t -> frun fs t = fs.
Proof. intros H. apply nodf_frun. eapply Forall_impl; [|exact H]. intros ev; destruct ev; cbn; tauto. Qed.

Lemma all_events_body P st fs ds t :
  lax P -> Forall is_def ds -> all_events P (run ([] :: st) ds) fs t ->
  all_events P st fs (scoped (ds ++ t)).
Proof.
  intros L D H. apply all_events_scoped; [exact L|]. apply all_events_app.
  split; [exact (all_events_defs L D)|]. rewrite (defs_frun _ D). exact H.
Qed.
Arguments all_events_body [P st fs ds t].

Definition top_only (t : trace) : Prop := forall f r, exists f', run (f :: r) t = f' :: r.
Definition neutral (t : trace) : Prop := forall st, run st t = st.

Lemma neutral_top_only t : neutral t -> top_only t.
Proof. intros H f r. exists f. apply H. Qed.
Lemma inert_neutral t : inert t -> neutral t.
Proof. intros H st. apply inert_run. exact H. Qed.
Lemma top_only_app a b : top_only a -> top_only b -> top_only (a ++ b).
Proof. intros A B f r. rewrite run_app. destruct (A f r) as [f1 ->]. apply B. Qed.
Lemma neutral_app a b : neutral a -> neutral b -> neutral (a ++ b).
Proof. intros A B st. rewrite run_app, A. apply B. Qed.
Lemma neutral_defF f t : neutral t -> neutral (EvDefF f :: t).
Proof. intros H st. apply H. Qed.
Lemma defs_top_only t : Forall is_def t -> top_only t.
Proof.
  intros H. induction H as [|ev t E _ IH]; intros f r; [exists f; reflexivity|].
  destruct ev; try contradiction. apply IH.
Qed.
Lemma scoped_neutral t : top_only t -> neutral (scoped t).
Proof.
  intros H st. unfold scoped. change (run st (EvPush :: t ++ [EvPop])) with (run (([] : frame) :: st) (t ++ [EvPop])).
  rewrite run_app. destruct (H [] st) as [f' ->]. reflexivity.
Qed.
#[export] Hint Resolve neutral_top_only inert_neutral top_only_app neutral_app neutral_defF defs_top_only scoped_neutral
  defs_is_def pdefs_is_def bdef_is_def predecl_is_def : bal.

Lemma frun_scoped fs t : frun fs (scoped t) = frun fs t.
Proof.
  unfold scoped. change (frun fs (EvPush :: t ++ [EvPop])) with (frun fs (t ++ [EvPop])).
  rewrite frun_app. reflexivity.
Qed.

Scheme eruns_mind := Minimality for eruns Sort Prop
  with esruns_mind := Minimality for esruns Sort Prop.
Combined Scheme eruns_esruns_ind from eruns_mind, esruns_mind.

Scheme sruns_mind := Minimality for sruns Sort Prop
  with ssruns_mind := Minimality for ssruns Sort Prop
  with aruns_mind := Minimality for aruns Sort Prop
  with hruns_mind := Minimality for hruns Sort Prop
  with floop_mind := Minimality for floop Sort Prop.
Combined Scheme runs_ind from sruns_mind, ssruns_mind, aruns_mind, hruns_mind, floop_mind.

Scheme expr_sind := Induction for expr Sort Prop
  with exprs_sind := Induction for exprs Sort Prop.
Combined Scheme expr_exprs_ind from expr_sind, exprs_sind.

Scheme stmt_sind := Induction for stmt Sort Prop
  with stmts_sind := Induction for stmts Sort Prop
  with arms_sind := Induction for arms Sort Prop
  with harms_sind := Induction for harms Sort Prop.
Combined Scheme syntax_ind from stmt_sind, stmts_sind, arms_sind, harms_sind.

Definition expr_ev (ev : event) : Prop :=
  match ev with EvRead _ | EvReadF _ | EvRaise _ _ _ => True | _ => False end.

Lemma Forall_readf (P : event -> Prop) (infun : bool) f :
  (infun = false -> P (EvReadF f)) -> Forall P (if infun then [] else [EvReadF f]).
Proof. destruct infun; repeat constructor; auto. Qed.

Lemma eruns_events T infun G :
  (forall x t o, eruns T infun G x t o -> Forall expr_ev t) /\
  (forall xs t o, esruns T infun G xs t o -> Forall expr_ev t).
Proof.
  apply eruns_esruns_ind; intros;
    repeat first [ assumption | apply Forall_nil | apply Forall_cons; [exact I|] | apply Forall_app; split
                 | apply Forall_readf; intros _; exact I ].
Qed.

Lemma eruns_inert T infun G x t o : eruns T infun G x t o -> inert t.
Proof.
  intros R. eapply Forall_impl; [|exact (proj1 (eruns_events T infun G) _ _ _ R)].
  intros ev; destruct ev; cbn; auto.
Qed.
#[export] Hint Resolve eruns_inert : bal.

(** C07 and C09 for variables, proved together *)
Definition var_ok (st : stack) (fs : list fname) (ev : event) : Prop :=
  match ev with
  | EvRead x => vis st x <> None
  | EvWrite x => vis st x = Some true
  | EvWriteFld r _ => vis st r = Some true
  | _ => True
  end.

Lemma lax_var_ok : lax var_ok.
Proof. intros st fs ev H. destruct ev; try exact I; destruct (H I). Qed.

Lemma eruns_var_ok T md e g st fs infun G :
  sim e st ->
  (forall x t o, eruns T infun G x t o ->
     check_expr T md e g x = None -> Forall (var_ok st fs) t) /\
  (forall xs t o, esruns T infun G xs t o ->
     check_exprs T md e g xs = None -> Forall (var_ok st fs) t).
Proof.
  intros S.
  assert (RD : forall v b, get_var e g v = Some b -> var_ok st fs (EvRead v)).
  { intros v b H. cbn. rewrite (sim_vis S H). discriminate. }
  apply eruns_esruns_ind; intros; cbn [check_expr check_exprs] in *;
    match goal with C : _ = None |- _ => destr C end;
    repeat first [ apply Forall_nil | apply Forall_app; split | solve [auto] | apply Forall_cons
                 | solve [eapply RD; eassumption] | exact I | apply Forall_readf; intros _ ].
Qed.

(** A simple statement emits [pre x], evaluates its expression [sexpr x] and, if that completes,
    emits [act x] and makes its definitions [predecl x]. *)
Definition sexpr (x : simple) : option expr :=
  match x with
  | XExpr e | XDef _ _ (Some e) | XAssign _ e | XAug _ e | XFieldSet _ _ e | XReturn (Some e) => Some e
  | _ => None
  end.
Definition pre (x : simple) : trace := match x with XAug v _ => [EvRead v] | _ => [] end.
Definition act (infun : bool) (G : list cls) (x : simple) : trace :=
  match x with
  | XAssign p _ => map EvWrite p
  | XAug v _ => [EvWrite v]
  | XFieldSet r f _ => [EvRead r; EvWriteFld r f]
  | XRaise c => [EvRaise c infun G]
  | _ => []
  end.
Definition completes (x : simple) : outcome :=
  match x with XReturn _ | XRaise _ => Abr | _ => Norm end.

Lemma xruns_nf T infun G x t o :
  xruns T infun G x t o ->
  exists te oe,
    match sexpr x with Some e => eruns T infun G e te oe | None => te = [] /\ oe = Norm end /\
    t = pre x ++ te ++ match oe with Norm => act infun G x ++ predecl x | Abr => [] end /\
    o = match oe with Norm => completes x | Abr => Abr end.
Proof.
  intros R. inv R; do 2 eexists; cbn [sexpr pre act predecl completes];
    (split; [first [eassumption|split; reflexivity]|]);
    try match goal with o' : outcome |- _ => destruct o' end; cbn;
    rewrite ?app_nil_r, <- ?app_assoc; split; reflexivity.
Qed.

Definition targets (x : simple) : list var :=
  match x with XAssign p _ => p | XAug v _ => [v] | XFieldSet r _ _ => [r] | _ => [] end.

Lemma act_events infun G x ev :
  In ev (pre x ++ act infun G x) ->
  match ev with
  | EvRead z | EvWrite z => In z (targets x)
  | EvWriteFld r f => exists y, x = XFieldSet r f y
  | EvRaise c i G' => x = XRaise c /\ i = infun /\ G' = G
  | _ => False
  end.
Proof.
  destruct x as [|m p init|p y|v y|r f y| |c|]; cbn; try tauto.
  - intros HI. apply in_map_iff in HI. destruct HI as [z [<- HI]]. exact HI.
  - intros [<-|[<-|[]]]; cbn; auto.
  - intros [<-|[<-|[]]]; cbn; eauto.
  - intros [<-|[]]. auto.
Qed.

Lemma act_inert infun G x : inert (pre x ++ act infun G x).
Proof.
  apply Forall_forall. intros ev HI. apply act_events in HI. destruct ev; try contradiction; exact I.
Qed.

Lemma xruns_shape T infun G x t o :
  xruns T infun G x t o ->
  exists ti, inert ti /\ t = ti ++ match o with Norm => predecl x | Abr => [] end.
Proof.
  intros R. destruct (xruns_nf R) as (te & oe & E & -> & ->).
  assert (I : inert te) by (destruct (sexpr x); [exact (eruns_inert E)|destruct E as [-> _]; constructor]).
  pose proof (act_inert infun G x) as IA. apply Forall_app in IA.
  destruct oe.
  - exists (pre x ++ te ++ act infun G x). split; [repeat (apply Forall_app; split); tauto|].
    rewrite <- !app_assoc. destruct x; cbn; rewrite ?app_nil_r; reflexivity.
  - exists (pre x ++ te). split; [apply Forall_app; tauto|]. rewrite <- app_assoc. reflexivity.
Qed.

Lemma xruns_run T infun G x t o st :
  xruns T infun G x t o -> run st t = match o with Norm => run st (predecl x) | Abr => st end.
Proof.
  intros R. destruct (xruns_shape R) as [ti [I ->]]. rewrite run_app, (@inert_run st ti I).
  destruct o; reflexivity.
Qed.

Lemma xruns_abr_neutral T infun G x t : xruns T infun G x t Abr -> neutral t.
Proof. intros R st. apply (xruns_run st R). Qed.

Lemma xruns_top_only T infun G x t o : xruns T infun G x t o -> top_only t.
Proof.
  intros R f r. rewrite (xruns_run _ R).
  destruct o; [apply defs_top_only, predecl_is_def|exists f; reflexivity].
Qed.
#[export] Hint Resolve xruns_abr_neutral xruns_top_only : bal.

Lemma xruns_all_events P st fs T infun G x t o :
  lax P -> xruns T infun G x t o ->
  (forall e te oe, sexpr x = Some e -> eruns T infun G e te oe -> Forall (P st fs) te) ->
  (forall ev, In ev (pre x ++ act infun G x) -> P st fs ev) -> all_events P st fs t.
Proof.
  intros L R He Ha. assert (F : Forall (P st fs) t).
  { destruct (xruns_nf R) as (te & oe & E & -> & _).
    apply Forall_forall in Ha. apply Forall_app in Ha.
    apply Forall_app; split; [apply Ha|]. apply Forall_app; split.
    - destruct (sexpr x) as [e|]; [exact (He _ _ _ eq_refl E)|destruct E as [-> _]; constructor].
    - destruct oe; [|constructor]. apply Forall_app; split; [apply Ha|exact (lax_defs L (predecl_is_def x))]. }
  destruct (xruns_shape R) as [ti [I ->]]. apply Forall_app in F.
  apply all_events_cond; [exact I|apply F|]. apply all_events_defs; [exact L|].
  destruct o; [apply predecl_is_def|constructor].
Qed.

Lemma iden_mut_true e g p :
  check_iden_mut e g p = None -> forall x, In x p -> get_var e g x <> None -> get_var e g x = Some true.
Proof.
  induction p as [|y p IH]; intros A x I D; [destruct I|].
  cbn [check_iden_mut] in A. destruct I as [->|I].
  - destruct (get_var e g x) as [[|]|]; congruence.
  - apply IH; try assumption. destruct (get_var e g y) as [[|]|]; try discriminate; [exact A|].
    destruct ((y =? SELF) && e_in_class e); [exact A|discriminate].
Qed.
Arguments iden_mut_true [e g p] _ [x].

Lemma check_reads_defined e g p :
  check_reads e g p = None -> forall x, In x p -> get_var e g x <> None.
Proof.
  induction p as [|y p IH]; intros A x I; [destruct I|].
  cbn [check_reads] in A. destruct (get_var e g y) eqn:E; [|discriminate].
  destruct I as [<-|I]; [congruence|apply IH; assumption].
Qed.
Arguments check_reads_defined [e g p] _ [x].

(** [e'] and not [e]: a field assignment to [self] checks its right-hand side with the field already
    taken out of [unassigned] *)
Lemma check_simple_expr T md e g x r :
  check_simple T md e g x = Ok r ->
  match sexpr x with
  | Some y => exists e', same_scope e e' /\ same_guard e e' /\ check_expr T md e' g y = None
  | None => True
  end.
Proof.
  intros C. destruct x as [y|m p [y|]|p y|v y|r0 f y|[y|]|c|]; cbn [sexpr]; try exact I;
    cbn [check_simple oexpr] in C; try destruct (r0 =? SELF); destr C;
    try match goal with E : check_expr _ _ _ _ (EBin _ _) = None |- _ => cbn [check_expr] in E; destr E end;
    (eexists; (split; [|split]); [| |eassumption]; split; reflexivity).
Qed.
Arguments check_simple_expr [T md e g x r].

(** [check_iden_mut] + the read of the left-hand side: every target is a visible mutable definition *)
Lemma check_simple_targets T md e g x r :
  check_simple T md e g x = Ok r -> forall z, In z (targets x) -> get_var e g z = Some true.
Proof.
  intros C z HI. destruct x as [|m p init|p y|v y|r0 f y| | |]; cbn [check_simple targets] in *; try contradiction.
  - destruct (check_iden_mut e g p) eqn:CI; [discriminate|]. destruct (check_expr T md e g y); [discriminate|].
    destruct (check_reads e g p) eqn:CR; [discriminate|]. exact (iden_mut_true CI HI (check_reads_defined CR HI)).
  - destruct HI as [<-|[]]. destruct (check_iden_mut e g [v]) eqn:CI; [discriminate|].
    apply (iden_mut_true CI (or_introl eq_refl)). cbn [check_expr] in C.
    destruct (check_expr T md e g y); [discriminate|]. destruct (get_var e g v); discriminate.
  - destruct HI as [<-|[]]. destruct (check_iden_mut e g [r0]) eqn:CI; [discriminate|].
    apply (iden_mut_true CI (or_introl eq_refl)). destruct (r0 =? SELF);
      (destruct (check_expr T md _ g y); [discriminate|]);
      match type of C with match ?k with _ => _ end = _ => change k with (get_var e g r0) in C end;
      destruct (get_var e g r0); discriminate.
Qed.
Arguments check_simple_targets [T md e g x r] _ [z].

Lemma xruns_var_ok T md e g x r st fs infun G t o :
  sim e st -> check_simple T md e g x = Ok r -> xruns T infun G x t o ->
  all_events var_ok st fs t.
Proof.
  intros S C R. apply (xruns_all_events st fs lax_var_ok R).
  - intros y te oe Hy Ry. pose proof (check_simple_expr C) as X. rewrite Hy in X.
    destruct X as (e' & SS & _ & Cy). exact (proj1 (@eruns_var_ok T md e' g st fs infun G (sim_scope SS S)) _ _ _ Ry Cy).
  - assert (V : forall z, In z (targets x) -> vis st z = Some true).
    { intros z HI. exact (sim_vis S (check_simple_targets C HI)). }
    intros ev HI. apply act_events in HI. destruct ev; try contradiction; cbn.
    + rewrite (V _ HI). discriminate.
    + exact (V _ HI).
    + destruct HI as [y ->]. apply V. left. reflexivity.
    + exact I.
Qed.
Arguments xruns_var_ok [T md e g x r st] fs [infun G t o].

(** [define_all], [check_params] and [bind_arm] all define a list of names one after the other *)
Definition bind_all (bs : list (bool * var)) (eg : env * gmap) : env * gmap :=
  fold_left (fun eg b => define (fst b) eg (snd b)) bs eg.

Lemma bind_all_sim bs : forall eg st, sim (fst eg) st -> sim (fst (bind_all bs eg)) (run st (pdefs bs)).
Proof.
  induction bs as [|[m x] bs IH]; intros [e g] st S; [exact S|].
  apply (IH (define m (e, g) x)), sim_define, S.
Qed.

Lemma bind_all_guard bs : forall eg, same_guard (fst eg) (fst (bind_all bs eg)).
Proof.
  induction bs as [|[m x] bs IH]; intros [e g]; [split; reflexivity|]. exact (IH (define m (e, g) x)).
Qed.

Lemma define_all_bind m p e g : define_all m e g p = bind_all (map (pair m) p) (e, g).
Proof.
  unfold define_all, bind_all. generalize (e, g).
  induction p as [|x p IH]; intros eg; [reflexivity|apply IH].
Qed.

Lemma defs_pdefs m p : defs m p = pdefs (map (pair m) p).
Proof. unfold defs, pdefs. rewrite map_map. reflexivity. Qed.

Lemma define_all_get (L : env -> var -> option bool) :
  (forall e g m x y, L (fst (define m (e, g) x)) y = if y =? x then Some m else L e y) ->
  forall m p e g x, L (fst (define_all m e g p)) x = if mem x p then Some m else L e x.
Proof.
  intros HL m p e g x. change (L e x) with (L (fst (e, g)) x). unfold define_all. generalize (e, g). clear e g.
  induction p as [|y p IH]; intros [e g]; cbn [fold_left mem]; [reflexivity|].
  rewrite IH, HL. destruct (mem x p); [rewrite orb_true_r; reflexivity|]. rewrite orb_false_r. reflexivity.
Qed.

Lemma check_params_bind ps : forall e g eg, check_params e g ps = Ok eg -> eg = bind_all ps (e, g).
Proof.
  induction ps as [|[m x] ps IH]; intros e g eg C; cbn [check_params] in C.
  - injection C as <-. reflexivity.
  - destr C. exact (IH _ _ _ C).
Qed.

Lemma define_all_sim m p e g st : sim e st -> sim (fst (define_all m e g p)) (run st (defs m p)).
Proof. rewrite define_all_bind, defs_pdefs. apply (bind_all_sim _ (e, g)). Qed.

Lemma check_params_sim ps e g e1 g1 st :
  check_params e g ps = Ok (e1, g1) -> sim e st -> sim e1 (run st (pdefs ps)).
Proof. intros C S. apply check_params_bind in C. change e1 with (fst (e1, g1)). rewrite C. exact (bind_all_sim ps (e, g) S). Qed.
Arguments check_params_sim [ps e g e1 g1 st].

Definition for_env (e : env) (g : gmap) (p : list var) : env * gmap :=
  (set_in_loop true (fst (define_all true e g p)), snd (define_all true e g p)).
Definition check_for T (p : list var) md e g := check_stmts T md (fst (for_env e g p)) (snd (for_env e g p)).

Lemma bind_arm_sim e g b st : sim e st -> sim (fst (bind_arm e g b)) (run st (bdef b)).
Proof.
  intros S. destruct b as [[m x]|]; [exact (bind_all_sim [(m, x)] (e, g) S)|exact (bind_all_sim [] (e, g) S)].
Qed.

Lemma check_simple_frame T md e g x e1 g1 :
  check_simple T md e g x = Ok (e1, g1) ->
  match x with
  | XDef m p _ => define_all m e g p = (e1, g1)
  | _ => same_scope e e1 /\ same_guard e e1
  end.
Proof.
  intros C. destruct x; cbn [check_simple] in C.
  2: { destruct (oexpr T md e g init); [discriminate|]. destruct p, init; congruence. }
  all: try destruct (r =? SELF); destr C; injection C as <- <-; repeat split.
Qed.
Arguments check_simple_frame [T md e g x e1 g1].

Lemma check_simple_sim T md e g x e1 g1 st :
  sim e st -> check_simple T md e g x = Ok (e1, g1) -> sim e1 (run st (predecl x)).
Proof.
  intros S C. apply check_simple_frame in C. destruct x.
  2: { change e1 with (fst (e1, g1)). rewrite <- C. exact (define_all_sim m p g S). }
  all: exact (sim_scope (proj1 C) S).
Qed.
Arguments check_simple_sim [T md e g x e1 g1 st].

Definition compound (s : stmt) : bool :=
  match s with SSimple _ | SHandle _ _ => false | _ => true end.

Lemma compound_frame T md e g s e' g' :
  check_stmt T md e g s = Ok (e', g') -> compound s = true -> same_scope e e' /\ same_guard e e'.
Proof.
  intros C K. destruct s; try discriminate K; chk C; injection C as <- <-;
    repeat match goal with u : option _ |- _ => destruct u end; repeat split.
Qed.
Arguments compound_frame [T md e g s e' g'].

(** by the [bal] hints: expressions are inert ([eruns_inert]), a simple statement changes the top frame
    only and nothing when it exits abruptly ([xruns_top_only], [xruns_abr_neutral]), definitions change
    the top frame only, a scoped piece is neutral *)
Lemma runs_balanced T :
  (forall infun G s t o, sruns T infun G s t o -> if compound s then neutral t else top_only t) /\
  (forall infun G ss t o, ssruns T infun G ss t o -> top_only t) /\
  (forall infun G a t o, aruns T infun G a t o -> neutral t) /\
  (forall infun G hs t o, hruns T infun G hs t o -> neutral t) /\
  (forall infun G p b t o, floop T infun G p b t o -> neutral t).
Proof.
  assert (N : neutral []) by (intros st; reflexivity).
  apply runs_ind; cbn [compound]; intros; try destruct (compound s); eauto 8 with bal.
Qed.

Lemma ssruns_top_only T infun G ss t o : ssruns T infun G ss t o -> top_only t.
Proof. apply runs_balanced. Qed.
Lemma hruns_neutral T infun G hs t o : hruns T infun G hs t o -> neutral t.
Proof. apply runs_balanced. Qed.
#[export] Hint Resolve ssruns_top_only : bal.

Lemma sruns_simple_inv T infun G x t o : sruns T infun G (SSimple x) t o -> xruns T infun G x t o.
Proof. intros H. inversion H. assumption. Qed.

Lemma sruns_handle_inv T infun G x hs t o :
  sruns T infun G (SHandle x hs) t o ->
  xruns T infun (hclasses hs ++ G) x t o \/
  exists t1 ta, t = t1 ++ predecl x ++ ta /\
    xruns T infun (hclasses hs ++ G) x t1 Abr /\ hruns T infun G hs ta o.
Proof. intros H. inversion H; subst; eauto 6. Qed.

Lemma ssruns_cons_inv T infun G s r t o :
  ssruns T infun G (SCons s r) t o ->
  (o = Abr /\ sruns T infun G s t Abr) \/
  exists t1 t2, t = t1 ++ t2 /\ sruns T infun G s t1 Norm /\ ssruns T infun G r t2 o.
Proof. intros H. inversion H; subst; eauto 7. Qed.

Lemma ssruns_nil_inv T infun G t o : ssruns T infun G SNil t o -> t = [] /\ o = Norm.
Proof. intros H. inversion H. auto. Qed.

Lemma sruns_ifelse_inv T infun G c a b t o :
  sruns T infun G (SIfElse c a b) t o ->
  (o = Abr /\ eruns T infun G c t Abr) \/
  exists tc tt, t = tc ++ scoped tt /\ eruns T infun G c tc Norm /\
    (ssruns T infun G a tt o \/ ssruns T infun G b tt o).
Proof. intros H. inversion H; subst; eauto 8. Qed.

Lemma eruns_const_inv T infun G t o : eruns T infun G EConst t o -> t = [] /\ o = Norm.
Proof. intros H. inversion H. auto. Qed.

Lemma sruns_sim T md infun G s t e g e' g' st :
  sruns T infun G s t Norm -> sim e st -> check_stmt T md e g s = Ok (e', g') -> sim e' (run st t).
Proof.
  intros R S C. pose proof (proj1 (runs_balanced T) _ _ _ _ _ R) as B.
  destruct (compound s) eqn:K.
  { rewrite B. exact (sim_scope (proj1 (compound_frame C K)) S). }
  destruct s; try discriminate K.
  - apply sruns_simple_inv in R. rewrite (xruns_run _ R). eapply check_simple_sim; eassumption.
  - chk C. injection C as <- <-.
    assert (RT : run st t = run st (predecl s)).
    { apply sruns_handle_inv in R. destruct R as [R|[t1 [ta [-> [R H]]]]]; [exact (xruns_run _ R)|].
      rewrite !run_app, (xruns_abr_neutral R). apply (hruns_neutral H). }
    rewrite RT. pose proof (check_simple_sim (e := set_caught _ e) S E) as S1.
    destruct (m_restore md), ce0; exact S1.
Qed.
Arguments sruns_sim [T md infun G s t e g e' g' st].

Section VarOk.
Variable T : tabs.

Lemma cond_ok md e g st fs infun G c tc o t :
  sim e st -> eruns T infun G c tc o -> check_expr T md e g c = None ->
  all_events var_ok st fs t -> all_events var_ok st fs (tc ++ t).
Proof.
  intros S R C. apply all_events_cond; [exact (eruns_inert R)|].
  exact (proj1 (@eruns_var_ok T md e g st fs infun G S) _ _ _ R C).
Qed.

Lemma cond_ok0 md e g st fs infun G c tc o :
  sim e st -> eruns T infun G c tc o -> check_expr T md e g c = None -> all_events var_ok st fs tc.
Proof. intros S R C. rewrite <- (app_nil_r tc). eapply cond_ok; try eassumption. exact I. Qed.

(** what each of the five mutual statements says, for the checking function [check] of its syntax class *)
Definition var_ok_run {S R} (check : mode -> env -> gmap -> S -> res (R * gmap)) (s : S) (t : trace) : Prop :=
  forall md e g r st fs, sim e st -> check md e g s = Ok r -> all_events var_ok st fs t.
Lemma body_ok ss t md e g r st fs ds :
  var_ok_run (check_stmts T) ss t -> Forall is_def ds -> sim e (run ([] :: st) ds) ->
  check_stmts T md e g ss = Ok r ->
  all_events var_ok st fs (scoped (ds ++ t)).
Proof. intros IH D S C. apply (all_events_body lax_var_ok D). eapply IH; eassumption. Qed.

Lemma body_ok0 ss t md e g r st fs :
  var_ok_run (check_stmts T) ss t -> sim e st -> check_stmts T md e g ss = Ok r ->
  all_events var_ok st fs (scoped t).
Proof. intros IH S C. eapply body_ok with (ds := []); [exact IH|constructor|exact (sim_push S)|exact C]. Qed.

Theorem runs_var_ok :
  (forall infun G s t o, sruns T infun G s t o -> var_ok_run (check_stmt T) s t) /\
  (forall infun G ss t o, ssruns T infun G ss t o -> var_ok_run (check_stmts T) ss t) /\
  (forall infun G a t o, aruns T infun G a t o -> var_ok_run (check_arms T) a t) /\
  (forall infun G hs t o, hruns T infun G hs t o -> var_ok_run (check_harms T) hs t) /\
  (forall infun G p b t o, floop T infun G p b t o -> var_ok_run (check_for T p) b t).
Proof.
  (* first the cases whose trace is [], [EvDefF f], or that of the condition alone *)
  apply runs_ind;
    try solve [unfold var_ok_run; intros; first [exact I|split; exact I|
      match goal with R : eruns _ _ _ _ ?tc _, C : _ = Ok _ |- all_events _ _ _ ?tc => chk C; eapply cond_ok0; eassumption end]].
  - (* RSimple *)
    intros infun G x t o HX md e g out st fs S C.
    exact (xruns_var_ok fs S C HX).
  - (* RHandleThrough *)
    intros infun G x hs t o HX md e g out st fs S C. chk C.
    eapply xruns_var_ok; [|exact E|exact HX]. exact S.
  - (* RHandleCatch: the arms run after the pre-declared definitions of the guarded statement *)
    intros infun G x hs t ta o HX HH IH md e g out st fs S C. chk C.
    pose proof (check_simple_sim (e := set_caught _ e) S E) as SP.
    apply all_events_app. split.
    { eapply xruns_var_ok; [|exact E|exact HX]. exact S. }
    rewrite (xruns_run _ HX). apply all_events_app.
    split; [apply all_events_defs; [exact lax_var_ok|apply predecl_is_def]|].
    eapply IH; [|exact E0]. destruct (m_restore md); exact SP.
  - (* RIfThen *)
    intros infun G c t tc tt o HC HB IH md e g out st fs S C. chk C.
    eapply cond_ok; try eassumption. eapply body_ok0; eassumption.
  - (* RIfElseT *)
    intros infun G c t el tc tt o HC HB IH md e g out st fs S C. chk C.
    eapply cond_ok; try eassumption. eapply body_ok0; eassumption.
  - (* RIfElseE *)
    intros infun G c t el tc tt o HC HB IH md e g out st fs S C. chk C.
    eapply cond_ok; try eassumption. eapply body_ok0; eassumption.
  - (* RMatchArm *)
    intros infun G c a tc ta o HC HA IH md e g out st fs S C. chk C.
    eapply cond_ok; try eassumption. eapply IH; eassumption.
  - (* RWhileLast *)
    intros infun G c b tc tb o HC HB IH md e g out st fs S C. chk C.
    eapply cond_ok; try eassumption. eapply body_ok0; [exact IH| |exact E0]. exact S.
  - (* RWhileIter *)
    intros infun G c b tc tb ob tr o HC HB IHB HW IHW md e g out st fs S C.
    pose proof (fun fs => IHW md e g out st fs S C) as AW. chk C.
    eapply cond_ok; try eassumption. apply all_events_app.
    split; [eapply body_ok0; [exact IHB| |exact E0]; exact S|].
    rewrite (scoped_neutral (ssruns_top_only HB)). apply AW.
  - (* RFor *)
    intros infun G p col b tc tl o HC HL IH md e g out st fs S C. chk C.
    eapply cond_ok; try eassumption. eapply IH; [exact S|exact E1].
  - (* RFunBody *)
    intros infun G f ps rs ret b tb o HB IH md e g out st fs S C. chk C.
    pose proof (check_params_sim E (sim_push S)) as SP.
    split; [exact I|]. eapply body_ok; [exact IH|apply pdefs_is_def| |exact E1].
    destruct ret, (m_restore md); exact SP.
  - (* RSConsA *)
    intros infun G s r t HS IH md e g out st fs S C. chk C. eapply IH; eassumption.
  - (* RSCons *)
    intros infun G s r t tr o HS IHS HR IHR md e g out st fs S C. chk C.
    apply all_events_app. split; [eapply IHS; eassumption|].
    eapply IHR; [exact (sruns_sim HS S E)|exact C].
  - (* RArmHere *)
    intros infun G b body rest t o HB IH md e g out st fs S C. chk C.
    eapply body_ok; [exact IH|apply bdef_is_def|exact (bind_arm_sim g b (sim_push S))|exact E].
  - (* RArmLater *)
    intros infun G b body rest t o HA IH md e g out st fs S C. chk C. eapply IH; eassumption.
  - (* RHArmHere *)
    intros infun G c b body rest t o HB IH md e g out st fs S C. chk C.
    eapply body_ok; [exact IH|apply bdef_is_def|exact (bind_arm_sim g b (sim_push S))|exact E].
  - (* RHArmLater *)
    intros infun G c b body rest t o HA IH md e g out st fs S C. chk C. eapply IH; eassumption.
  - (* RFLast *)
    intros infun G p b tb o HB IH md e g out st fs S C.
    eapply body_ok; [exact IH|apply defs_is_def| |exact C]. exact (define_all_sim true p g (sim_push S)).
  - (* RFIter *)
    intros infun G p b tb ob tr o HB IHB HL IHL md e g out st fs S C.
    apply all_events_app. split.
    + eapply body_ok; [exact IHB|apply defs_is_def| |exact C]. exact (define_all_sim true p g (sim_push S)).
    + rewrite (@scoped_neutral (defs true p ++ tb)) by eauto with bal. exact (IHL md e g out st _ S C).
Qed.

End VarOk.

Lemma has_parent_sound ct o : forall fuel c, has_parent fuel ct c o = HpT -> ancestor ct o c.
Proof.
  induction fuel as [|k IH]; intros c H; cbn [has_parent] in H; [discriminate|].
  destruct (alook c ct) as [ps|] eqn:E; [|discriminate].
  destruct (c =? o) eqn:Eq.
  - apply Nat.eqb_eq in Eq. subst. eapply AncRefl; eassumption.
  - match type of H with ?go ps false = HpT =>
      assert (GO : forall l found, go l found = HpT ->
                 found = true \/ exists p, In p l /\ has_parent k ct p o = HpT) end.
    { induction l as [|p l IHl]; intros found Hg; cbn in Hg.
      - destruct found; [left; reflexivity|discriminate].
      - destruct (has_parent k ct p o) eqn:Hp; try discriminate.
        + right. exists p. split; [left; reflexivity|exact Hp].
        + destruct (IHl _ Hg) as [->|[q [I1 I2]]]; [left; reflexivity|].
          right. exists q. split; [right; exact I1|exact I2]. }
    destruct (GO ps false H) as [D|[p [I1 I2]]]; [discriminate|].
    eapply AncStep; [exact E|exact I1|apply IH; exact I2].
Qed.

Lemma lax_raise_ok ct : lax (raise_ok ct).
Proof. intros st fs ev H. destruct ev; try exact I; destruct (H I). Qed.

Definition caught_in (e : env) (infun : bool) (G : list cls) : Prop :=
  e_in_fun e = infun /\ (infun = true -> incl (e_caught e) G).

Lemma caught_in_guard e e' infun G : same_guard e e' -> caught_in e infun G -> caught_in e' infun G.
Proof. intros [A B] [C D]. split; [congruence|]. intros H. rewrite <- A. auto. Qed.

Section C08.
Variable T : tabs.
Notation ct := (t_cls T).

Lemma any_caught_sound c caught :
  any_caught T c caught = HpT -> exists g, In g caught /\ ancestor ct g c.
Proof.
  induction caught as [|g r IH]; cbn [any_caught]; [discriminate|].
  destruct (has_parent (fuel_of T) ct c g) eqn:H; intros A; try discriminate.
  - exists g. split; [left; reflexivity|eapply has_parent_sound; exact H].
  - destruct (IH A) as [g' [I1 I2]]. exists g'. split; [right; exact I1|exact I2].
  - destruct (IH A) as [g' [I1 I2]]. exists g'. split; [right; exact I1|exact I2].
Qed.

Lemma check_raises_sound e cs :
  check_raises T e cs = None -> e_in_fun e = true ->
  forall c, In c cs -> exists g, In g (e_caught e) /\ ancestor ct g c.
Proof.
  intros C F. induction cs as [|d r IH]; intros c I; [destruct I|].
  cbn [check_raises] in C. rewrite F in C. destr C.
  destruct I as [<-|I]; [apply any_caught_sound; assumption|apply IH; assumption].
Qed.

Lemma raise_event_ok e infun G c cs st fs :
  caught_in e infun G -> check_raises T e cs = None -> In c cs -> raise_ok ct st fs (EvRaise c infun G).
Proof.
  intros [F I] C HI. unfold raise_ok. destruct infun; [|exact Logic.I].
  destruct (check_raises_sound e cs C F c HI) as [g [I1 I2]].
  exists g. split; [apply I; [reflexivity|exact I1]|exact I2].
Qed.

Lemma eruns_rok e g infun G st fs :
  caught_in e infun G ->
  (forall x t o, eruns T infun G x t o -> check_expr T repaired e g x = None -> Forall (raise_ok ct st fs) t) /\
  (forall xs t o, esruns T infun G xs t o -> check_exprs T repaired e g xs = None -> Forall (raise_ok ct st fs) t).
Proof.
  intros HG.
  apply eruns_esruns_ind; intros; cbn [check_expr check_exprs m_methods repaired] in *;
    match goal with C : _ = None |- _ => destr C end;
    repeat first [ apply Forall_nil | apply Forall_app; split | solve [auto] | apply Forall_cons; [exact I|]
                 | apply Forall_readf; intros _; exact I ].
  (* left: the raise of a call and of a method call, covered by the declared raises that were checked *)
  all: constructor; [|constructor]; eapply raise_event_ok; try eassumption.
  all: unfold raises_of in *; match goal with E : alook _ _ = _ |- _ => rewrite E in * end; assumption.
Qed.

Lemma simple_guard md e g x e1 g1 :
  check_simple T md e g x = Ok (e1, g1) -> same_guard e e1.
Proof.
  intros C. apply check_simple_frame in C. destruct x; try apply C.
  rewrite define_all_bind in C. change e1 with (fst (e1, g1)). rewrite <- C. apply (bind_all_guard _ (e, g)).
Qed.
Arguments simple_guard [md e g x e1 g1].

(** [m_restore] is needed for the handle only: without it the arm classes stay caught
    ([handle_restores_refuted]) *)
Lemma check_stmt_guard md s e g e' g' :
  m_restore md = true -> check_stmt T md e g s = Ok (e', g') -> same_guard e e'.
Proof.
  intros HM C. destruct (compound s) eqn:K; [exact (proj2 (compound_frame C K))|].
  destruct s; try discriminate K; [exact (simple_guard C)|].
  cbn [check_stmt] in C. rewrite HM in C. chk C. injection C as <- <-.
  destruct (simple_guard E) as [A B]. destruct ce0; split; cbn in *; congruence.
Qed.

Lemma xruns_rok e g out infun G x t o st fs :
  caught_in e infun G -> xruns T infun G x t o -> check_simple T repaired e g x = Ok out ->
  all_events (raise_ok ct) st fs t.
Proof.
  intros HG R C. apply (xruns_all_events st fs (lax_raise_ok ct) R).
  - intros y te oe Hy Ry. pose proof (check_simple_expr C) as X. rewrite Hy in X.
    destruct X as (e' & _ & SG & Cy). exact (proj1 (@eruns_rok e' g infun G st fs (caught_in_guard SG HG)) _ _ _ Ry Cy).
  - intros ev HI. apply act_events in HI. destruct ev; try exact I. destruct HI as (-> & -> & ->).
    cbn [check_simple] in C. destruct (check_raises T e [c]) eqn:CR; [discriminate|].
    eapply raise_event_ok; [exact HG|exact CR|left; reflexivity].
Qed.

Definition raise_ok_run {S R} (check : env -> gmap -> S -> res (R * gmap)) infun G (s : S) (t : trace) : Prop :=
  forall e g out st fs, caught_in e infun G -> check e g s = Ok out -> all_events (raise_ok ct) st fs t.

Lemma rcond e g infun G c tc o st fs t :
  caught_in e infun G -> eruns T infun G c tc o -> check_expr T repaired e g c = None ->
  all_events (raise_ok ct) st fs t -> all_events (raise_ok ct) st fs (tc ++ t).
Proof.
  intros HG R C. apply all_events_cond; [exact (eruns_inert R)|].
  exact (proj1 (@eruns_rok e g infun G st fs HG) _ _ _ R C).
Qed.

Lemma rcond0 e g infun G c tc o st fs :
  caught_in e infun G -> eruns T infun G c tc o -> check_expr T repaired e g c = None ->
  all_events (raise_ok ct) st fs tc.
Proof. intros HG R C. rewrite <- (app_nil_r tc). eapply rcond; try eassumption. exact I. Qed.

Lemma caught_in_handle e infun G cs : caught_in e infun G -> caught_in (set_caught (e_caught e ++ cs) e) infun (cs ++ G).
Proof.
  intros [F I]. split; [exact F|]. intros Ht. apply incl_app; [apply incl_appr; auto|apply incl_appl, incl_refl].
Qed.

Lemma caught_in_for e g p infun G : caught_in e infun G -> caught_in (fst (for_env e g p)) infun G.
Proof.
  apply caught_in_guard. unfold for_env. rewrite define_all_bind. exact (bind_all_guard _ (e, g)).
Qed.

Theorem runs_raise_ok :
  (forall infun G s t o, sruns T infun G s t o -> raise_ok_run (check_stmt T repaired) infun G s t) /\
  (forall infun G ss t o, ssruns T infun G ss t o -> raise_ok_run (check_stmts T repaired) infun G ss t) /\
  (forall infun G a t o, aruns T infun G a t o -> raise_ok_run (check_arms T repaired) infun G a t) /\
  (forall infun G hs t o, hruns T infun G hs t o -> raise_ok_run (check_harms T repaired) infun G hs t) /\
  (forall infun G p b t o, floop T infun G p b t o -> raise_ok_run (check_for T p repaired) infun G b t).
Proof.
  pose proof (lax_raise_ok ct) as L.
  (* first the cases whose trace is [], [EvDefF f], or that of the condition alone *)
  apply runs_ind;
    try solve [unfold raise_ok_run; intros; first [exact I|split; exact I|
      match goal with R : eruns _ _ _ _ ?tc _, C : _ = Ok _ |- all_events _ _ _ ?tc => chk C; eapply rcond0; eassumption end]].
  - (* RSimple *)
    intros infun G x t o HX e g out st fs HG C. eapply xruns_rok; eassumption.
  - (* RHandleThrough *)
    intros infun G x hs t o HX e g out st fs HG C. chk C.
    eapply xruns_rok; [|exact HX|exact E]. apply caught_in_handle, HG.
  - (* RHandleCatch: the arms see the caught set from before the handle *)
    intros infun G x hs t ta o HX HH IH e g out st fs HG C. chk C.
    apply all_events_app. split; [|apply all_events_app; split].
    + eapply xruns_rok; [|exact HX|exact E]. apply caught_in_handle, HG.
    + exact (all_events_defs L (predecl_is_def x)).
    + eapply IH; [|exact E0]. destruct (simple_guard E) as [_ B], HG as [F I].
      split; [cbn in *; congruence|exact I].
  - (* RIfThen *) intros infun G c t tc tt o HC HB IH e g out st fs HG C. chk C.
    eapply rcond; try eassumption. apply (all_events_scoped L). eapply IH; eassumption.
  - (* RIfElseT *) intros infun G c t el tc tt o HC HB IH e g out st fs HG C. chk C.
    eapply rcond; try eassumption. apply (all_events_scoped L). eapply IH; eassumption.
  - (* RIfElseE *) intros infun G c t el tc tt o HC HB IH e g out st fs HG C. chk C.
    eapply rcond; try eassumption. apply (all_events_scoped L). eapply IH; eassumption.
  - (* RMatchArm *) intros infun G c a tc ta o HC HA IH e g out st fs HG C. chk C.
    eapply rcond; try eassumption. eapply IH; eassumption.
  - (* RWhileLast *) intros infun G c b tc tb o HC HB IH e g out st fs HG C. chk C.
    eapply rcond; try eassumption. apply (all_events_scoped L). eapply IH; [|eassumption]. exact HG.
  - (* RWhileIter *) intros infun G c b tc tb ob tr o HC HB IHB HW IHW e g out st fs HG C.
    pose proof (fun st fs => IHW e g out st fs HG C) as AW. chk C.
    eapply rcond; try eassumption. apply all_events_app. split; [|apply AW].
    apply (all_events_scoped L). eapply IHB; [|eassumption]. exact HG.
  - (* RFor *) intros infun G p col b tc tl o HC HL IH e g out st fs HG C. chk C.
    eapply rcond; try eassumption. eapply IH; [exact HG|exact E1].
  - (* RFunBody: the body starts from the declared raises *)
    intros infun G f ps rs ret b tb o HB IH e g out st fs HG C. chk C.
    split; [exact I|]. apply (all_events_body L (pdefs_is_def ps)).
    eapply IH; [|exact E1]. destruct ret; split; cbn; try reflexivity; intros _; apply incl_refl.
  - (* RSConsA *) intros infun G s r t HS IH e g out st fs HG C. chk C. eapply IH; eassumption.
  - (* RSCons *) intros infun G s r t tr o HS IHS HR IHR e g out st fs HG C. chk C.
    apply all_events_app. split; [eapply IHS; eassumption|].
    eapply IHR; [|exact C]. exact (caught_in_guard (@check_stmt_guard repaired s e g ce cg eq_refl E) HG).
  - (* RArmHere *) intros infun G b body rest t o HB IH e g out st fs HG C. chk C.
    apply (all_events_body L (bdef_is_def b)). eapply IH; [|exact E]. destruct b as [[m x]|]; exact HG.
  - (* RArmLater *) intros infun G b body rest t o HA IH e g out st fs HG C. chk C. eapply IH; eassumption.
  - (* RHArmHere *) intros infun G c b body rest t o HB IH e g out st fs HG C. chk C.
    apply (all_events_body L (bdef_is_def b)). eapply IH; [|exact E]. destruct b as [[m x]|]; exact HG.
  - (* RHArmLater *) intros infun G c b body rest t o HA IH e g out st fs HG C. chk C. eapply IH; eassumption.
  - (* RFLast *) intros infun G p b tb o HB IH e g out st fs HG C.
    apply (all_events_body L (defs_is_def true p)). eapply IH; [|exact C].
    apply caught_in_for, HG.
  - (* RFIter *) intros infun G p b tb ob tr o HB IHB HL IHL e g out st fs HG C.
    apply all_events_app. split; [|eapply IHL; eassumption].
    apply (all_events_body L (defs_is_def true p)). eapply IHB; [|exact C].
    apply caught_in_for, HG.
Qed.

End C08.

(** D12: [ord_stmts F p] holds when every top-level call of p names a function in F or one defined
    earlier in the same or an enclosing block (calls inside function bodies run later and are not
    judged: [SFun] gives [true]) *)
Fixpoint ord_expr (F : list fname) (x : expr) : bool :=
  match x with
  | EBin a b => ord_expr F a && ord_expr F b
  | ECall f args => mem f F && ord_exprs F args
  | EPrint args => ord_exprs F args
  | EMCall _ _ args => ord_exprs F args
  | _ => true
  end
with ord_exprs (F : list fname) (xs : exprs) : bool :=
  match xs with ENil => true | ECons x r => ord_expr F x && ord_exprs F r end.

Definition ord_simple (F : list fname) (x : simple) : bool :=
  match x with
  | XExpr e | XDef _ _ (Some e) | XAssign _ e | XAug _ e | XFieldSet _ _ e | XReturn (Some e) => ord_expr F e
  | _ => true
  end.

Definition after (s : stmt) (F : list fname) : list fname :=
  match s with SFun f _ _ _ _ => f :: F | _ => F end.

Fixpoint ord_stmt (F : list fname) (s : stmt) : bool :=
  match s with
  | SSimple x => ord_simple F x
  | SHandle x hs => ord_simple F x && ord_harms F hs
  | SIf c t => ord_expr F c && ord_stmts F t
  | SIfElse c t el => ord_expr F c && ord_stmts F t && ord_stmts F el
  | SMatch c a => ord_expr F c && ord_arms F a
  | SWhile c b => ord_expr F c && ord_stmts F b
  | SFor _ col b => ord_expr F col && ord_stmts F b
  | SFun _ _ _ _ _ => true
  end
with ord_stmts (F : list fname) (ss : stmts) : bool :=
  match ss with SNil => true | SCons s r => ord_stmt F s && ord_stmts (after s F) r end
with ord_arms (F : list fname) (a : arms) : bool :=
  match a with ANil => true | ACons _ body rest => ord_stmts F body && ord_arms F rest end
with ord_harms (F : list fname) (hs : harms) : bool :=
  match hs with HNil => true | HCons _ _ body rest => ord_stmts F body && ord_harms F rest end.

(** D11: no assignment to a field declared fin *)
Definition fin_field (fl : list (field * bool)) (f : field) : bool :=
  match alook f fl with Some false => true | _ => false end.
Definition nf_simple (fl : list (field * bool)) (x : simple) : bool :=
  match x with XFieldSet _ f _ => negb (fin_field fl f) | _ => true end.
Fixpoint nf_stmt (fl : list (field * bool)) (s : stmt) : bool :=
  match s with
  | SSimple x => nf_simple fl x
  | SHandle x hs => nf_simple fl x && nf_harms fl hs
  | SIf _ t => nf_stmts fl t
  | SIfElse _ t el => nf_stmts fl t && nf_stmts fl el
  | SMatch _ a => nf_arms fl a
  | SWhile _ b => nf_stmts fl b
  | SFor _ _ b => nf_stmts fl b
  | SFun _ _ _ _ b => nf_stmts fl b
  end
with nf_stmts (fl : list (field * bool)) (ss : stmts) : bool :=
  match ss with SNil => true | SCons s r => nf_stmt fl s && nf_stmts fl r end
with nf_arms (fl : list (field * bool)) (a : arms) : bool :=
  match a with ANil => true | ACons _ body rest => nf_stmts fl body && nf_arms fl rest end
with nf_harms (fl : list (field * bool)) (hs : harms) : bool :=
  match hs with HNil => true | HCons _ _ body rest => nf_stmts fl body && nf_harms fl rest end.

Definition fld_ok (fl : list (field * bool)) (ev : event) : Prop :=
  match ev with EvWriteFld _ f => alook f fl <> Some false | _ => True end.

Lemma nf_nil :
  (forall s, nf_stmt [] s = true) /\ (forall ss, nf_stmts [] ss = true) /\
  (forall a, nf_arms [] a = true) /\ (forall h, nf_harms [] h = true).
Proof.
  apply syntax_ind; intros; cbn [nf_stmt nf_stmts nf_arms nf_harms];
    repeat match goal with H : _ = true |- _ => rewrite H end; try reflexivity;
    destruct s; reflexivity.
Qed.

Lemma lax_fread_ok : lax fread_ok.
Proof. intros st fs ev H. destruct ev; try exact I; destruct (H I). Qed.

Lemma frun_incl fs t : incl fs (frun fs t).
Proof.
  revert fs. induction t as [|ev t IH]; intros fs; cbn; [apply incl_refl|].
  eapply incl_tran; [|apply IH]. destruct ev; cbn; try apply incl_refl. apply incl_tl, incl_refl.
Qed.

Lemma imp_andb (P : Prop) a b : (P -> a && b = true) -> (P -> a = true) /\ (P -> b = true).
Proof. intros H. split; intros p; destruct (andb_prop _ _ (H p)); assumption. Qed.

(** [H : P -> a && b = true] becomes [O : P -> a = true] and [H : P -> b = true], again while [b] is a conjunction *)
Ltac osplit H :=
  cbn [ord_stmt ord_stmts ord_arms ord_harms] in H;
  repeat match type of H with
  | _ -> _ && _ = true => let A := fresh "O" in apply imp_andb in H; destruct H as [A H]
  end.

Section Ordered.
Variable T : tabs.

Lemma eruns_fread infun G F st fs :
  incl F fs ->
  (forall x t o, eruns T infun G x t o -> (infun = false -> ord_expr F x = true) -> Forall (fread_ok st fs) t) /\
  (forall xs t o, esruns T infun G xs t o -> (infun = false -> ord_exprs F xs = true) -> Forall (fread_ok st fs) t).
Proof.
  intros HI.
  apply eruns_esruns_ind; intros; cbn [ord_expr ord_exprs] in *;
    match goal with O : _ -> _ = true |- _ => osplit O end;
    repeat first [ apply Forall_nil | apply Forall_app; split | solve [auto] | apply Forall_cons; [exact I|] ].
  (* left: a call at top level finds its function among those defined so far *)
  all: apply Forall_readf; intros Hi; apply HI, mem_In; auto.
Qed.

Lemma ord_simple_sexpr F x :
  ord_simple F x = match sexpr x with Some y => ord_expr F y | None => true end.
Proof. destruct x as [|? ? [|]| | | |[|]| |]; reflexivity. Qed.

Lemma xruns_fread infun G F st fs x t o :
  incl F fs -> xruns T infun G x t o -> (infun = false -> ord_simple F x = true) ->
  all_events fread_ok st fs t.
Proof.
  intros HI R HO. apply (xruns_all_events st fs lax_fread_ok R).
  - intros y te oe Hy Ry. apply (proj1 (@eruns_fread infun G F st fs HI) _ _ _ Ry).
    intros Hi. rewrite <- (HO Hi), ord_simple_sexpr, Hy. reflexivity.
  - intros ev HA. apply act_events in HA. destruct ev; try exact I. contradiction.
Qed.

Lemma after_incl infun G s t o F fs :
  sruns T infun G s t o -> incl F fs -> incl (after s F) (frun fs t).
Proof.
  intros R HI. destruct s; cbn [after]; try (eapply incl_tran; [exact HI|apply frun_incl]).
  intros x [<-|Hx]; [|apply frun_incl, HI, Hx].
  inv R; [left; reflexivity|]. apply (frun_incl (f :: fs)). left; reflexivity.
Qed.

Lemma fcond infun G F st fs c tc o t :
  incl F fs -> eruns T infun G c tc o -> (infun = false -> ord_expr F c = true) ->
  all_events fread_ok st fs t -> all_events fread_ok st fs (tc ++ t).
Proof.
  intros HI R O. apply all_events_cond; [exact (eruns_inert R)|].
  exact (proj1 (@eruns_fread infun G F st fs HI) _ _ _ R O).
Qed.

Lemma fcond0 infun G F st fs c tc o :
  incl F fs -> eruns T infun G c tc o -> (infun = false -> ord_expr F c = true) ->
  all_events fread_ok st fs tc.
Proof. intros HI R O. rewrite <- (app_nil_r tc). eapply fcond; try eassumption. exact I. Qed.

Definition ordered_run {S} (ord : list fname -> S -> bool) (infun : bool) (s : S) (t : trace) : Prop :=
  forall F fs st, (infun = false -> ord F s = true) -> incl F fs -> all_events fread_ok st fs t.

Theorem runs_ordered :
  (forall infun G s t o, sruns T infun G s t o -> ordered_run ord_stmt infun s t) /\
  (forall infun G ss t o, ssruns T infun G ss t o -> ordered_run ord_stmts infun ss t) /\
  (forall infun G a t o, aruns T infun G a t o -> ordered_run ord_arms infun a t) /\
  (forall infun G hs t o, hruns T infun G hs t o -> ordered_run ord_harms infun hs t) /\
  (forall infun G p b t o, floop T infun G p b t o -> ordered_run ord_stmts infun b t).
Proof.
  pose proof lax_fread_ok as L.
  assert (UP : forall F fs t, incl F fs -> incl F (frun fs t)).
  { intros F fs t H. eapply incl_tran; [exact H|apply frun_incl]. }
  (* first the cases whose trace is [], [EvDefF f], or that of the condition alone *)
  apply runs_ind;
    try solve [unfold ordered_run; intros; first [exact I|split; exact I|
      match goal with R : eruns _ _ _ _ ?tc _, O : _ -> _ = true |- all_events _ _ _ ?tc =>
        osplit O; eapply fcond0; eassumption end]].
  - (* RSimple *) intros infun G x t o HX F fs st HO HI. eapply xruns_fread; eassumption.
  - (* RHandleThrough *) intros infun G x hs t o HX F fs st HO HI. osplit HO.
    eapply xruns_fread; eassumption.
  - (* RHandleCatch *) intros infun G x hs t ta o HX HH IH F fs st HO HI. osplit HO.
    apply all_events_app. split; [|apply all_events_app; split].
    + eapply xruns_fread; eassumption.
    + exact (all_events_defs L (predecl_is_def x)).
    + apply (IH F); auto.
  - (* RIfThen *) intros infun G c t tc tt o HC HB IH F fs st HO HI. osplit HO.
    eapply fcond; try eassumption. apply (all_events_scoped L), (IH F); assumption.
  - (* RIfElseA *) intros infun G c t el tc HC F fs st HO HI. osplit HO. osplit O. eapply fcond0; eassumption.
  - (* RIfElseT *) intros infun G c t el tc tt o HC HB IH F fs st HO HI. osplit HO. osplit O.
    eapply fcond; try eassumption. apply (all_events_scoped L), (IH F); assumption.
  - (* RIfElseE *) intros infun G c t el tc tt o HC HB IH F fs st HO HI. osplit HO. osplit O.
    eapply fcond; try eassumption. apply (all_events_scoped L), (IH F); assumption.
  - (* RMatchArm *) intros infun G c a tc ta o HC HA IH F fs st HO HI. osplit HO.
    eapply fcond; try eassumption. apply (IH F); assumption.
  - (* RWhileLast *) intros infun G c b tc tb o HC HB IH F fs st HO HI. osplit HO.
    eapply fcond; try eassumption. apply (all_events_scoped L), (IH F); assumption.
  - (* RWhileIter *) intros infun G c b tc tb ob tr o HC HB IHB HW IHW F fs st HO HI.
    pose proof (fun fs st => IHW F fs st HO) as AW. osplit HO.
    eapply fcond; try eassumption. apply all_events_app. split; [|apply AW, UP, HI].
    apply (all_events_scoped L), (IHB F); assumption.
  - (* RFor *) intros infun G p col b tc tl o HC HL IH F fs st HO HI. osplit HO.
    eapply fcond; try eassumption. apply (IH F); assumption.
  - (* RFunBody: inside the body no call needs the function object *)
    intros infun G f ps rs ret b tb o HB IH F fs st HO HI.
    split; [exact I|]. apply (all_events_body L (pdefs_is_def ps)), (IH F); [discriminate|].
    apply incl_tl, HI.
  - (* RSConsA *) intros infun G s r t HS IH F fs st HO HI. osplit HO. apply (IH F); assumption.
  - (* RSCons *) intros infun G s r t tr o HS IHS HR IHR F fs st HO HI. osplit HO.
    apply all_events_app. split; [apply (IHS F); assumption|].
    apply (IHR (after s F)); [assumption|]. eapply after_incl; eassumption.
  - (* RArmHere *) intros infun G b body rest t o HB IH F fs st HO HI. osplit HO.
    apply (all_events_body L (bdef_is_def b)), (IH F); assumption.
  - (* RArmLater *) intros infun G b body rest t o HA IH F fs st HO HI. osplit HO. apply (IH F); assumption.
  - (* RHArmHere *) intros infun G c b body rest t o HB IH F fs st HO HI. osplit HO.
    apply (all_events_body L (bdef_is_def b)), (IH F); assumption.
  - (* RHArmLater *) intros infun G c b body rest t o HA IH F fs st HO HI. osplit HO. apply (IH F); assumption.
  - (* RFLast *) intros infun G p b tb o HB IH F fs st HO HI.
    apply (all_events_body L (defs_is_def true p)), (IH F); assumption.
  - (* RFIter *) intros infun G p b tb ob tr o HB IHB HL IHL F fs st HO HI.
    apply all_events_app. split; [|apply (IHL F); auto].
    apply (all_events_body L (defs_is_def true p)), (IHB F); assumption.
Qed.

End Ordered.

Section FieldClass.
Variable T : tabs.
Variable fl : list (field * bool).

Lemma lax_fld : lax (fun _ _ => fld_ok fl).
Proof. intros st fs ev H. destruct ev; try exact I; destruct (H I). Qed.

Lemma fld_defs t : Forall is_def t -> Forall (fld_ok fl) t.
Proof. exact (lax_defs (st := []) (fs := []) lax_fld). Qed.

Lemma fld_scoped t : Forall (fld_ok fl) t -> Forall (fld_ok fl) (scoped t).
Proof. intros H. constructor; [exact I|]. apply Forall_app; split; [exact H|repeat constructor]. Qed.

Lemma eruns_fld infun G x t o : eruns T infun G x t o -> Forall (fld_ok fl) t.
Proof.
  intros R. eapply Forall_impl; [|exact (proj1 (eruns_events T infun G) _ _ _ R)].
  intros ev; destruct ev; cbn; tauto.
Qed.

Lemma xruns_fld infun G x t o : xruns T infun G x t o -> nf_simple fl x = true -> Forall (fld_ok fl) t.
Proof.
  intros R HN. apply (all_events_const (fld_ok fl) [] []), (xruns_all_events [] [] lax_fld R).
  - intros y te oe _ Ry. exact (eruns_fld Ry).
  - intros ev HI. apply act_events in HI. destruct ev; try exact I. destruct HI as [y ->].
    cbn in *. unfold fin_field in HN. destruct (alook f fl) as [[|]|]; try discriminate; congruence.
Qed.

Theorem runs_fld :
  (forall infun G s t o, sruns T infun G s t o -> nf_stmt fl s = true -> Forall (fld_ok fl) t) /\
  (forall infun G ss t o, ssruns T infun G ss t o -> nf_stmts fl ss = true -> Forall (fld_ok fl) t) /\
  (forall infun G a t o, aruns T infun G a t o -> nf_arms fl a = true -> Forall (fld_ok fl) t) /\
  (forall infun G hs t o, hruns T infun G hs t o -> nf_harms fl hs = true -> Forall (fld_ok fl) t) /\
  (forall infun G p b t o, floop T infun G p b t o -> nf_stmts fl b = true -> Forall (fld_ok fl) t).
Proof.
  (* every trace is put together from traces of expressions ([eruns_fld]), of simple statements
     ([xruns_fld]), definitions and scope brackets *)
  apply runs_ind; intros;
    repeat match goal with H : eruns _ _ _ _ _ _ |- _ => apply eruns_fld in H end;
    cbn [nf_stmt nf_stmts nf_arms nf_harms] in *;
    repeat match goal with H : _ && _ = true |- _ => bsplit H end;
    repeat first [ apply Forall_nil | apply fld_defs; auto with bal; fail
                 | apply Forall_cons; [exact I|] | apply Forall_app; split | apply fld_scoped
                 | solve [eapply xruns_fld; eassumption] | solve [auto] ].
Qed.

End FieldClass.

Lemma read_ok_preceded t : forall st fs seen,
  (forall x, vis st x <> None -> In x seen) ->
  all_events read_ok st fs t -> preceded seen t.
Proof.
  induction t as [|ev t IH]; intros st fs seen HV H; [exact I|].
  cbn [all_events] in H. destruct H as [A B].
  assert (TL : forall x, vis (tl st) x <> None -> vis st x <> None).
  { intros x. destruct st as [|f r]; cbn; [auto|]. destruct (alook x f); [discriminate|auto]. }
  destruct ev; cbn [preceded]; try (eapply IH; [|exact B]; cbn [step]; auto; fail).
  - (* def *) eapply IH; [|exact B]. intros y Hy.
    destruct (Nat.eq_dec x y) as [->|N]; [left; reflexivity|right; apply HV].
    destruct st as [|f r]; cbn in Hy |- *.
    + destruct (y =? x) eqn:E; [apply Nat.eqb_eq in E; congruence|]. congruence.
    + destruct (y =? x) eqn:E; [apply Nat.eqb_eq in E; congruence|]. exact Hy.
  - (* read *) split; [apply HV; exact A|]. eapply IH; [|exact B]. exact HV.
Qed.

Definition recv_ok (st : stack) (fs : list fname) (ev : event) : Prop :=
  match ev with EvWriteFld r _ => vis st r = Some true | _ => True end.

Section Main.
Variable T : tabs.

Theorem vars_sound md p e g t o :
  check_program T md p = Ok (e, g) -> ssruns T false [] p t o ->
  all_events read_ok [[]] [] t /\ all_events write_ok [[]] [] t /\ all_events recv_ok [[]] [] t.
Proof.
  intros C R.
  pose proof (proj1 (proj2 (runs_var_ok T)) _ _ _ _ _ R md env0 [] (e, g) [[]] [] sim_env0 C) as A.
  repeat split; (eapply all_events_impl; [|exact A]); intros s f ev H; destruct ev; cbn in *; auto.
Qed.

Theorem C09_sound_vars strict p e g t o :
  check_program T strict p = Ok (e, g) -> ssruns T false [] p t o ->
  all_events read_ok [[]] [] t /\ preceded [] t.
Proof.
  intros C R. destruct (vars_sound strict C R) as [A _]. split; [exact A|].
  eapply read_ok_preceded; [|exact A]. intros x H. cbn in H. congruence.
Qed.

Theorem C07_sound_vars strict p e g t o :
  check_program T strict p = Ok (e, g) -> ssruns T false [] p t o ->
  all_events write_ok [[]] [] t /\ all_events recv_ok [[]] [] t.
Proof. intros C R. destruct (vars_sound strict C R) as [_ B]. exact B. Qed.

Theorem ordered_sound p t o :
  ssruns T false [] p t o -> ord_stmts [] p = true -> all_events fread_ok [[]] [] t.
Proof.
  intros R HO. exact (proj1 (proj2 (runs_ordered T)) _ _ _ _ _ R [] [] [[]] (fun _ => HO) (incl_refl _)).
Qed.

Theorem nofin_sound fl infun G p t o :
  ssruns T infun G p t o -> nf_stmts fl p = true -> Forall (fld_ok fl) t.
Proof. apply runs_fld. Qed.

Theorem C08_sound_strict p e g t o :
  check_program T repaired p = Ok (e, g) -> ssruns T false [] p t o ->
  all_events (raise_ok (t_cls T)) [[]] [] t.
Proof.
  intros C R. eapply (proj1 (proj2 (runs_raise_ok T))); [exact R| |exact C].
  split; [reflexivity|discriminate].
Qed.

End Main.
