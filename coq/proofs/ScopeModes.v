(** [restored] (the code as it is) and [repaired] (what C08 demands) differ in one place only: [repaired]
    checks the declared raises of a method call.  On a program in which no called method declares a
    raise ([nm_stmts]: the class outside D19) they are the same function, so the soundness theorem of
    [repaired] is a theorem about the code. *)
From Coq Require Import List Bool Arith PeanoNat.
Import ListNotations.
From MambaModel Require Import model.Scope proofs.ScopeProps.

Definition quiet_method (mt : list (mname * list cls)) (m : mname) : bool :=
  match alook m mt with Some (_ :: _) => false | _ => true end.

Fixpoint nm_expr (mt : list (mname * list cls)) (x : expr) : bool :=
  match x with
  | EBin a b => nm_expr mt a && nm_expr mt b
  | ECall _ args => nm_exprs mt args
  | EPrint args => nm_exprs mt args
  | EMCall _ m args => quiet_method mt m && nm_exprs mt args
  | _ => true
  end
with nm_exprs (mt : list (mname * list cls)) (xs : exprs) : bool :=
  match xs with ENil => true | ECons x r => nm_expr mt x && nm_exprs mt r end.

Definition nm_simple (mt : list (mname * list cls)) (x : simple) : bool :=
  match x with
  | XExpr e | XDef _ _ (Some e) | XAssign _ e | XAug _ e | XFieldSet _ _ e | XReturn (Some e) => nm_expr mt e
  | _ => true
  end.

Fixpoint nm_stmt (mt : list (mname * list cls)) (s : stmt) : bool :=
  match s with
  | SSimple x => nm_simple mt x
  | SHandle x hs => nm_simple mt x && nm_harms mt hs
  | SIf c t => nm_expr mt c && nm_stmts mt t
  | SIfElse c t el => nm_expr mt c && nm_stmts mt t && nm_stmts mt el
  | SMatch c a => nm_expr mt c && nm_arms mt a
  | SWhile c b => nm_expr mt c && nm_stmts mt b
  | SFor _ col b => nm_expr mt col && nm_stmts mt b
  | SFun _ _ _ _ b => nm_stmts mt b
  end
with nm_stmts (mt : list (mname * list cls)) (ss : stmts) : bool :=
  match ss with SNil => true | SCons s r => nm_stmt mt s && nm_stmts mt r end
with nm_arms (mt : list (mname * list cls)) (a : arms) : bool :=
  match a with ANil => true | ACons _ body rest => nm_stmts mt body && nm_arms mt rest end
with nm_harms (mt : list (mname * list cls)) (hs : harms) : bool :=
  match hs with HNil => true | HCons _ _ body rest => nm_stmts mt body && nm_harms mt rest end.

Section Modes.
Variable T : tabs.
Notation mt := (t_meth T).

Lemma expr_modes e g :
  (forall x, nm_expr mt x = true -> check_expr T restored e g x = check_expr T repaired e g x) /\
  (forall xs, nm_exprs mt xs = true -> check_exprs T restored e g xs = check_exprs T repaired e g xs).
Proof.
  apply expr_exprs_ind; cbn [nm_expr nm_exprs check_expr check_exprs]; try reflexivity.
  - intros a IHa b IHb H. bsplit H. rewrite (IHb H), (IHa N). reflexivity.
  - intros f args IH H. rewrite (IH H). reflexivity.
  - intros args IH H. exact (IH H).
  - intros r m args IH H. bsplit H. rewrite (IH H).
    destruct (check_exprs T repaired e g args); [reflexivity|].
    destruct (get_var e g r); [|reflexivity]. cbn [m_methods restored repaired].
    unfold quiet_method in N. destruct (alook m mt) as [[|c rs]|]; try discriminate; reflexivity.
  - intros x IHx r IHr H. bsplit H. rewrite (IHx N), (IHr H). reflexivity.
Qed.

Lemma simple_modes e g x : nm_simple mt x = true ->
  check_simple T restored e g x = check_simple T repaired e g x.
Proof.
  intros H. destruct x; cbn [nm_simple check_simple oexpr] in *; try reflexivity.
  - rewrite (proj1 (expr_modes e g) _ H). reflexivity.
  - destruct init as [x|]; cbn [oexpr]; [rewrite (proj1 (expr_modes e g) _ H)|]; reflexivity.
  - rewrite (proj1 (expr_modes e g) _ H). reflexivity.
  - rewrite (proj1 (expr_modes e g) (EBin (ERead x) e0) H). reflexivity.
  - destruct (check_iden_mut e g [r]); [reflexivity|].
    rewrite (proj1 (expr_modes _ g) _ H). reflexivity.
  - destruct e0 as [x|]; [|reflexivity]. rewrite (proj1 (expr_modes e g) _ H). reflexivity.
Qed.

Theorem stmt_modes :
  (forall s e g, nm_stmt mt s = true -> check_stmt T restored e g s = check_stmt T repaired e g s) /\
  (forall ss e g, nm_stmts mt ss = true -> check_stmts T restored e g ss = check_stmts T repaired e g ss) /\
  (forall a e g, nm_arms mt a = true -> check_arms T restored e g a = check_arms T repaired e g a) /\
  (forall h e g, nm_harms mt h = true -> check_harms T restored e g h = check_harms T repaired e g h).
Proof.
  apply syntax_ind; cbn [nm_stmt nm_stmts nm_arms nm_harms check_stmt check_stmts check_arms check_harms
                         m_restore restored repaired].
  - intros x e g H. apply simple_modes; exact H.
  - intros x hs IH e g H. bsplit H. rewrite (simple_modes _ g x N).
    destruct (check_simple T repaired _ g x) as [[e1 g1]|k]; [|reflexivity]. rewrite (IH _ _ H). reflexivity.
  - intros c t IH e g H. bsplit H. rewrite (proj1 (expr_modes e g) _ N), (IH _ _ H). reflexivity.
  - intros c t IHt el IHe e g H. bsplit H. bsplit N. rewrite (proj1 (expr_modes e g) _ N0), (IHt _ _ N).
    destruct (check_expr T repaired e g c); [reflexivity|].
    destruct (check_stmts T repaired e g t) as [[et g1]|k]; [|reflexivity]. rewrite (IHe _ _ H). reflexivity.
  - intros c a IH e g H. bsplit H. rewrite (proj1 (expr_modes e g) _ N), (IH _ _ H). reflexivity.
  - intros c b IH e g H. bsplit H. rewrite (proj1 (expr_modes e g) _ N), (IH _ _ H). reflexivity.
  - intros p col b IH e g H. bsplit H. rewrite (proj1 (expr_modes e g) _ N).
    destruct (check_expr T repaired e g col); [reflexivity|].
    destruct (check_reads _ _ p); [reflexivity|]. rewrite (IH _ _ H). reflexivity.
  - intros f ps rs ret b IH e g H.
    destruct (check_params e g ps) as [[e1 g1]|k]; [|reflexivity].
    destruct (check_declared T rs); [reflexivity|]. rewrite (IH _ _ H). reflexivity.
  - reflexivity.
  - intros s IHs ss IHss e g H. bsplit H. rewrite (IHs _ _ N).
    destruct (check_stmt T repaired e g s) as [[e1 g1]|k]; [|reflexivity]. apply IHss; exact H.
  - reflexivity.
  - intros b body IHb rest IHr e g H. bsplit H. rewrite (IHb _ _ N).
    destruct (check_stmts T repaired _ _ body) as [[be g1]|k]; [|reflexivity]. rewrite (IHr _ _ H). reflexivity.
  - reflexivity.
  - intros c b body IHb rest IHr e g H. bsplit H. rewrite (IHb _ _ N).
    destruct (check_stmts T repaired _ _ body) as [[be g1]|k]; [|reflexivity]. rewrite (IHr _ _ H). reflexivity.
Qed.

(** C08 for the code as it is, outside D19 *)
Theorem C08_sound_restored p e g t o :
  nm_stmts mt p = true ->
  check_program T restored p = Ok (e, g) -> ssruns T false [] p t o ->
  all_events (raise_ok (t_cls T)) [[]] [] t.
Proof.
  intros HN C R. unfold check_program in C. rewrite (proj1 (proj2 stmt_modes) p env0 [] HN) in C.
  eapply C08_sound_strict; eassumption.
Qed.

End Modes.
