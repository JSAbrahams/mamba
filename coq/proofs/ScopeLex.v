(** [lx_stmts] is the reference: plain lexical scoping on a stack of frames, no offsets, no global
    mapping.  A use of a name is fine iff a definition of it comes earlier in the same or an enclosing
    block; function bodies see the definition point plus parameters, binders and loop variables live in
    the scope of their construct, the arms of a handle see the definitions of the guarded statement.
    The checker agrees with it: an accepted program is lexically fine, and a program is rejected as
    "undefined" only when the reference finds an undefined use. *)
From Coq Require Import List Bool Arith PeanoNat.
Import ListNotations.
From MambaModel Require Import model.Scope proofs.ScopeProps.

Definition visb (st : stack) (x : var) : bool :=
  match vis st x with Some _ => true | None => false end.
Definition isok {A} (o : option A) : bool := match o with Some _ => true | None => false end.

Fixpoint lx_expr (st : stack) (x : expr) : bool :=
  match x with
  | EConst => true
  | ERead v => visb st v
  | EBin a b => lx_expr st a && lx_expr st b
  | ECall _ args => lx_exprs st args
  | EPrint args => lx_exprs st args
  | EMCall r _ args => visb st r && lx_exprs st args
  | EField r _ => visb st r
  end
with lx_exprs (st : stack) (xs : exprs) : bool :=
  match xs with ENil => true | ECons x r => lx_expr st x && lx_exprs st r end.

Definition lx_oexpr (st : stack) (o : option expr) : bool :=
  match o with Some x => lx_expr st x | None => true end.

Definition lx_simple (st : stack) (x : simple) : option stack :=
  match x with
  | XExpr e => if lx_expr st e then Some st else None
  | XDef m p init => if lx_oexpr st init then Some (run st (defs m p)) else None
  | XAssign p e => if forallb (visb st) p && lx_expr st e then Some st else None
  | XAug v e => if visb st v && lx_expr st e then Some st else None
  | XFieldSet r _ e => if visb st r && lx_expr st e then Some st else None
  | XReturn o => if lx_oexpr st o then Some st else None
  | XRaise _ => Some st
  | XPass => Some st
  end.

Fixpoint lx_stmt (st : stack) (s : stmt) : option stack :=
  match s with
  | SSimple x => lx_simple st x
  | SHandle x hs =>
    match lx_simple st x with
    | None => None
    | Some st1 => if lx_harms st1 hs then Some st1 else None
    end
  | SIf c t => if lx_expr st c && isok (lx_stmts ([] :: st) t) then Some st else None
  | SIfElse c t el =>
    if lx_expr st c && isok (lx_stmts ([] :: st) t) && isok (lx_stmts ([] :: st) el) then Some st else None
  | SMatch c a => if lx_expr st c && lx_arms st a then Some st else None
  | SWhile c b => if lx_expr st c && isok (lx_stmts ([] :: st) b) then Some st else None
  | SFor p col b =>
    if lx_expr st col && isok (lx_stmts (run ([] :: st) (defs true p)) b) then Some st else None
  | SFun _ ps _ _ b => if isok (lx_stmts (run ([] :: st) (pdefs ps)) b) then Some st else None
  end
with lx_stmts (st : stack) (ss : stmts) : option stack :=
  match ss with
  | SNil => Some st
  | SCons s r => match lx_stmt st s with None => None | Some st1 => lx_stmts st1 r end
  end
with lx_arms (st : stack) (a : arms) : bool :=
  match a with
  | ANil => true
  | ACons b body rest => isok (lx_stmts (run ([] :: st) (bdef b)) body) && lx_arms st rest
  end
with lx_harms (st : stack) (hs : harms) : bool :=
  match hs with
  | HNil => true
  | HCons _ b body rest => isok (lx_stmts (run ([] :: st) (bdef b)) body) && lx_harms st rest
  end.

Section Lex.
Variable T : tabs.

Lemma visb_get e g st x : sim e st -> visb st x = isok (get_var e g x).
Proof. intros S. unfold visb. rewrite (S g x). reflexivity. Qed.

Lemma check_raises_kind e cs : check_raises T e cs <> Some KUndef.
Proof.
  induction cs as [|c r IH]; cbn [check_raises]; [discriminate|].
  destruct (e_in_fun e); [|discriminate]. destruct (alook c (t_cls T)); [|discriminate].
  destruct (any_caught T c (e_caught e)); try discriminate. exact IH.
Qed.

Lemma check_declared_kind rs : check_declared T rs <> Some KUndef.
Proof.
  induction rs as [|c r IH]; cbn [check_declared]; [discriminate|].
  destruct (has_parent (fuel_of T) (t_cls T) c EXC); try discriminate. exact IH.
Qed.

Lemma check_params_kind ps : forall e g, check_params e g ps <> Rej KUndef.
Proof.
  induction ps as [|[m x] ps IH]; intros e g; cbn [check_params]; [discriminate|].
  destruct ((x =? SELF) && negb (e_in_class e)); [discriminate|apply IH].
Qed.

(** case split on the rejection kind; every kind other than [KUndef] makes the goal [True] *)
Ltac kundef k := destruct k; try exact I.

(** a check and a lexical test agree: on acceptance, and on "undefined" *)
Definition okb (o : option kind) (b : bool) : Prop :=
  match o with None => b = true | Some KUndef => b = false | Some _ => True end.
Definition err {R} (r : res R) : option kind := match r with Ok _ => None | Rej k => Some k end.
(** the same for a check that returns an environment and a reference that returns a stack *)
Definition agr (r : res (env * gmap)) (l : option stack) : Prop :=
  match r with
  | Ok (e', _) => exists st', l = Some st' /\ sim e' st'
  | Rej KUndef => l = None
  | Rej _ => True
  end.

(** one step of the checker, [o], against the conjunct [a] of the test the reference makes in [l]: if
    [o] fails with "undefined" then [a] is false, which must make [l] fail; if [o] passes, the rest of
    the checker is compared with [l] knowing that [a] is true *)
Lemma guard o a r l :
  okb o a -> (a = false -> l = None) -> (a = true -> agr r l) ->
  agr (match o with Some k => Rej k | None => r end) l.
Proof. destruct o as [k|]; [kundef k|]; cbn; auto. Qed.
Arguments guard [o a r l].

Lemma guard_res {R} (r1 : res R) a f l :
  okb (err r1) a -> (a = false -> l = None) -> (a = true -> forall x, agr (f x) l) ->
  agr (match r1 with Ok x => f x | Rej k => Rej k end) l.
Proof. destruct r1 as [x|k]; [|kundef k]; cbn; auto. Qed.
Arguments guard_res [R r1 a f l].

Lemma lx_expr_agrees md e g st : sim e st ->
  (forall x, okb (check_expr T md e g x) (lx_expr st x)) /\
  (forall xs, okb (check_exprs T md e g xs) (lx_exprs st xs)).
Proof.
  intros S. assert (VG := fun x => visb_get e g st x S).
  apply expr_exprs_ind; unfold okb; cbn [check_expr check_exprs lx_expr lx_exprs].
  - reflexivity.
  - intros x. rewrite VG. destruct (get_var e g x); reflexivity.
  - intros a IHa b IHb. destruct (check_expr T md e g b) as [k|].
    + kundef k. rewrite IHb. apply andb_false_r.
    + rewrite IHb, andb_true_r. exact IHa.
  - intros f args IH. destruct (check_exprs T md e g args) as [k|]; [exact IH|].
    destruct (alook f (t_fun T)) as [[ar rs]|]; [|exact I]. destruct (elen args =? ar); [|exact I].
    destruct (check_raises T e rs) as [k|] eqn:K; [kundef k; destruct (check_raises_kind _ _ K)|exact IH].
  - intros args IH. exact IH.
  - intros r m args IH. rewrite VG. destruct (check_exprs T md e g args) as [k|].
    + kundef k. rewrite IH. apply andb_false_r.
    + rewrite IH, andb_true_r. destruct (get_var e g r); [|reflexivity].
      destruct (m_methods md); [|reflexivity].
      destruct (check_raises T e _) as [k|] eqn:K; [kundef k; destruct (check_raises_kind _ _ K)|reflexivity].
  - intros r f. rewrite VG. destruct ((r =? SELF) && mem f (e_unassigned e)); [exact I|].
    destruct (get_var e g r); reflexivity.
  - reflexivity.
  - intros x IHx r IHr. destruct (check_expr T md e g x) as [k|].
    + kundef k. rewrite IHx. reflexivity.
    + rewrite IHx. exact IHr.
Qed.

Lemma iden_mut_undef e g st p : sim e st ->
  check_iden_mut e g p = Some KUndef -> forallb (visb st) p = false.
Proof.
  intros S. induction p as [|x p IH]; cbn [check_iden_mut forallb]; [discriminate|].
  rewrite (visb_get e g st x S). destruct (get_var e g x) as [[|]|]; cbn.
  - exact IH.
  - discriminate.
  - reflexivity.
Qed.

Lemma reads_agree e g st p : sim e st -> okb (check_reads e g p) (forallb (visb st) p).
Proof.
  intros S. induction p as [|x p IH]; cbn [check_reads forallb]; [reflexivity|].
  rewrite (visb_get e g st x S). destruct (get_var e g x); [exact IH|reflexivity].
Qed.

Lemma reads_after_define m p e g : check_reads (fst (define_all m e g p)) (snd (define_all m e g p)) p = None.
Proof.
  assert (H : forall q, (forall x, In x q -> mem x p = true) ->
              check_reads (fst (define_all m e g p)) (snd (define_all m e g p)) q = None).
  { induction q as [|x q IH]; intros HQ; cbn [check_reads]; [reflexivity|].
    rewrite (define_all_get (fun e => get_var e _) (fun e g => get_var_define e g _)).
    rewrite (HQ x (or_introl eq_refl)). apply IH. intros y Hy. apply HQ. right. exact Hy. }
  apply H. intros x. apply mem_In.
Qed.

Lemma lx_simple_agrees md e g x st : sim e st -> agr (check_simple T md e g x) (lx_simple st x).
Proof.
  intros S.
  pose proof (fun e' (S' : sim e' st) => proj1 (lx_expr_agrees md e' g st S')) as EX.
  assert (HERE : agr (Ok (e, g)) (Some st)) by (exists st; auto).
  destruct x; cbn [check_simple lx_simple].
  - (* XExpr *) apply (guard (EX e S e0)); intros ->; [reflexivity|exact HERE].
  - (* XDef *)
    assert (OX : okb (oexpr T md e g init) (lx_oexpr st init))
      by (destruct init as [x|]; [apply (EX e S x)|reflexivity]).
    apply (guard OX); intros ->; [reflexivity|].
    pose proof (define_all_sim m p g S) as S1.
    assert (OKD : agr (Ok (define_all m e g p)) (Some (run st (defs m p)))).
    { destruct (define_all m e g p) as [e1 g1]. eexists. split; [reflexivity|exact S1]. }
    destruct p; destruct init; try exact OKD; exact I.
  - (* XAssign *)
    destruct (check_iden_mut e g p) as [k|] eqn:CI.
    + kundef k. cbn. rewrite (iden_mut_undef e g st p S CI). reflexivity.
    + apply (guard (EX e S e0)); intros ->; [rewrite andb_false_r; reflexivity|rewrite andb_true_r].
      apply (guard (reads_agree e g st p S)); intros ->; [reflexivity|exact HERE].
  - (* XAug *)
    destruct (check_iden_mut e g [x]) as [k|] eqn:CI.
    + kundef k. pose proof (iden_mut_undef e g st [x] S CI) as H. cbn [forallb] in H.
      rewrite andb_true_r in H. cbn. rewrite H. reflexivity.
    + specialize (EX e S (EBin (ERead x) e0)). cbn [lx_expr] in EX.
      apply (guard EX); intros ->; [reflexivity|exact HERE].
  - (* XFieldSet *)
    destruct (check_iden_mut e g [r]) as [k|] eqn:CI.
    + kundef k. pose proof (iden_mut_undef e g st [r] S CI) as H. cbn [forallb] in H.
      rewrite andb_true_r in H. cbn. rewrite H. reflexivity.
    + set (e2 := if r =? SELF then set_unassigned (remove_all f (e_unassigned e)) e else e).
      assert (S2 : sim e2 st) by (unfold e2; destruct (r =? SELF); exact S).
      apply (guard (EX e2 S2 e0)); intros ->; [rewrite andb_false_r; reflexivity|].
      rewrite andb_true_r, (visb_get e2 g st r S2).
      destruct (get_var e2 g r); cbn; [|reflexivity]. exists st. auto.
  - (* XReturn *)
    destruct e0 as [x|]; cbn [lx_oexpr].
    + destruct (e_has_ret e); [|exact I]. apply (guard (EX e S x)); intros ->; [reflexivity|exact HERE].
    + destruct (e_has_ret e); [exact I|]. destruct (e_in_fun e); [exact HERE|exact I].
  - (* XRaise *)
    destruct (check_raises T e [c]) as [k|] eqn:K; [kundef k; destruct (check_raises_kind _ _ K)|exact HERE].
  - exact HERE.
Qed.

Definition agrees_stack {S} (check : mode -> env -> gmap -> S -> res (env * gmap))
    (lx : stack -> S -> option stack) (s : S) : Prop :=
  forall md e g st, sim e st -> agr (check md e g s) (lx st s).
Definition agrees_bool {S R} (check : mode -> env -> gmap -> S -> res R) (lx : stack -> S -> bool) (s : S) : Prop :=
  forall md e g st, sim e st -> okb (err (check md e g s)) (lx st s).

Lemma body_of (b : stmts) : agrees_stack (check_stmts T) lx_stmts b ->
  forall md e g st, sim e st -> okb (err (check_stmts T md e g b)) (isok (lx_stmts st b)).
Proof.
  intros IH md e g st S. specialize (IH md e g st S).
  destruct (check_stmts T md e g b) as [[e' g']|k].
  - destruct IH as [st' [-> _]]. reflexivity.
  - kundef k. cbn in *. rewrite IH. reflexivity.
Qed.

Theorem lx_agrees :
  (forall s, agrees_stack (check_stmt T) lx_stmt s) /\ (forall ss, agrees_stack (check_stmts T) lx_stmts ss) /\
  (forall a, agrees_bool (check_arms T) lx_arms a) /\ (forall h, agrees_bool (check_harms T) lx_harms h).
Proof.
  apply syntax_ind; unfold agrees_stack, agrees_bool;
    cbn [check_stmt check_stmts check_arms check_harms lx_stmt lx_stmts lx_arms lx_harms].
  - (* SSimple *) intros x md e g st S. apply lx_simple_agrees; assumption.
  - (* SHandle *)
    intros x hs IH md e g st S.
    pose proof (lx_simple_agrees md (set_caught (e_caught e ++ hclasses hs) e) g x st S) as X.
    destruct (check_simple T md _ g x) as [[e1 g1]|k]; [|kundef k; cbn in *; rewrite X; reflexivity].
    destruct X as [st1 [-> S1]].
    match goal with |- context [check_harms T md ?o g1 hs] => set (outer := o) end.
    assert (So : sim outer st1) by (unfold outer; destruct (m_restore md); exact S1).
    apply (guard_res (IH md outer g1 st1 So)); intros ->; [reflexivity|intros [u g2]].
    exists st1. split; [reflexivity|destruct u; exact So].
  - (* SIf *)
    intros c t IH md e g st S.
    apply (guard (proj1 (lx_expr_agrees md e g st S) c)); intros ->; [reflexivity|cbn [andb]].
    apply (guard_res (body_of t IH md e g ([] :: st) (sim_push S))); intros ->;
      [reflexivity|intros [et g1]].
    exists st. auto.
  - (* SIfElse *)
    intros c t IHt el IHe md e g st S.
    apply (guard (proj1 (lx_expr_agrees md e g st S) c)); intros ->; [reflexivity|cbn [andb]].
    apply (guard_res (body_of t IHt md e g ([] :: st) (sim_push S))); intros ->;
      [reflexivity|intros [et g1]; cbn [andb]].
    apply (guard_res (body_of el IHe md e g1 ([] :: st) (sim_push S))); intros ->;
      [reflexivity|intros [ee g2]].
    exists st. split; [reflexivity|exact S].
  - (* SMatch *)
    intros c a IH md e g st S.
    apply (guard (proj1 (lx_expr_agrees md e g st S) c)); intros ->; [reflexivity|cbn [andb]].
    apply (guard_res (IH md e g st S)); intros ->; [reflexivity|intros [u g1]].
    exists st. split; [reflexivity|destruct u; exact S].
  - (* SWhile *)
    intros c b IH md e g st S.
    apply (guard (proj1 (lx_expr_agrees md e g st S) c)); intros ->; [reflexivity|cbn [andb]].
    apply (guard_res (body_of b IH md (set_in_loop true e) g ([] :: st) (sim_push S))); intros ->;
      [reflexivity|intros [eb g1]].
    exists st. auto.
  - (* SFor *)
    intros p col b IH md e g st S.
    apply (guard (proj1 (lx_expr_agrees md e g st S) col)); intros ->; [reflexivity|cbn [andb]].
    rewrite (reads_after_define true p e g).
    apply (guard_res (body_of b IH md (set_in_loop true (fst (define_all true e g p)))
                            (snd (define_all true e g p)) _ (define_all_sim true p g (sim_push S))));
      intros ->; [reflexivity|intros [eb g1]].
    exists st. auto.
  - (* SFun *)
    intros f ps rs ret b IH md e g st S.
    destruct (check_params e g ps) as [[e1 g1]|k] eqn:CP; [|kundef k; destruct (check_params_kind _ _ _ CP)].
    destruct (check_declared T rs) as [k|] eqn:CD; [kundef k; destruct (check_declared_kind _ CD)|].
    pose proof (check_params_sim CP (sim_push S)) as SP.
    match goal with |- context [check_stmts T md ?e4 g1 b] => set (e4' := e4) end.
    assert (S4 : sim e4' (run ([] :: st) (pdefs ps))) by (unfold e4'; destruct ret, (m_restore md); exact SP).
    apply (guard_res (body_of b IH md e4' g1 _ S4)); intros ->; [reflexivity|intros [eb g2]].
    exists st. auto.
  - (* SNil *) intros md e g st S. exists st. auto.
  - (* SCons *)
    intros s IHs ss IHss md e g st S.
    specialize (IHs md e g st S). destruct (check_stmt T md e g s) as [[e1 g1]|k].
    + destruct IHs as [st1 [-> S1]]. apply IHss; assumption.
    + kundef k. cbn in *. rewrite IHs. reflexivity.
  - (* ANil *) intros md e g st S. reflexivity.
  - (* ACons *)
    intros b body IHb rest IHr md e g st S.
    pose proof (body_of body IHb md _ (snd (bind_arm e g b)) _ (bind_arm_sim g b (sim_push S))) as Y.
    destruct (check_stmts T md (fst (bind_arm e g b)) (snd (bind_arm e g b)) body) as [[be g1]|k];
      [|kundef k]; cbn in Y; rewrite Y; [|reflexivity].
    specialize (IHr md e g1 st S).
    destruct (check_arms T md e g1 rest) as [[u g2]|k]; [exact IHr|kundef k; exact IHr].
  - (* HNil *) intros md e g st S. reflexivity.
  - (* HCons *)
    intros c b body IHb rest IHr md e g st S.
    pose proof (body_of body IHb md _ (snd (bind_arm e g b)) _ (bind_arm_sim g b (sim_push S))) as Y.
    destruct (check_stmts T md (fst (bind_arm e g b)) (snd (bind_arm e g b)) body) as [[be g1]|k];
      [|kundef k]; cbn in Y; rewrite Y; [|reflexivity].
    specialize (IHr md e g1 st S).
    destruct (check_harms T md e g1 rest) as [[u g2]|k]; [exact IHr|kundef k; exact IHr].
Qed.

Theorem lexical_agreement md p :
  match check_program T md p with
  | Ok _ => isok (lx_stmts [[]] p) = true
  | Rej KUndef => lx_stmts [[]] p = None
  | Rej _ => True
  end.
Proof.
  unfold check_program. pose proof (proj1 (proj2 lx_agrees) p md env0 [] [[]] sim_env0) as X.
  destruct (check_stmts T md env0 [] p) as [[e g]|k]; [|exact X].
  destruct X as [st' [X1 _]]. rewrite X1. reflexivity.
Qed.

End Lex.
