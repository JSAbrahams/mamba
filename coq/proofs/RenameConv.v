(** * [conv] commutes with renaming: the induction over typed ASTs *)
From Coq Require Import List String Bool Lia.
From MambaModel Require Import model.Core gen.Names model.Convert model.Rename
  proofs.ConvUnfold proofs.ConvertProps proofs.ImportsConv
  proofs.RenameProps proofs.RenameTypes proofs.RenameClass.
Import ListNotations.
Local Open Scope string_scope.

Section Ops.
  Context {rho : string -> string} {rfs : string -> string} {G : Good rho}.
  Notation ren := (ren_core rho rfs).
  Lemma bin_core_ren o l r : bin_core o (ren l) (ren r) = ren (bin_core o l r).
  Proof. destruct o; reflexivity. Qed.
  Lemma un_core_ren o e : un_core o (ren e) = ren (un_core o e).
  Proof. destruct o; reflexivity. Qed.
End Ops.

Section Conv.
  Context {rho : string -> string} {rfs : string -> string} {G : Good rho}.
  Notation ren := (ren_core rho rfs).
  Notation rena := (ren_ast rho rfs).
  Notation rnm := (ren_nm rho).
  Notation rtn := (ren_tn rho).
  Notation ronm := (ren_onm rho).
  Notation rst := (ren_state rho rfs).
  Notation iok := (@iok rho rfs).

  Definition on_value {X} (f : X -> X) (r : option (X * imports)) : option (X * imports) :=
    match r with Some (x, j) => Some (f x, j) | None => None end.
  Definition mren {X} (f : X -> X) (m' m : M X) : Prop := forall i, m' i = on_value f (m i).

  Lemma mren_ret {X} (f : X -> X) x' x : x' = f x -> mren f (ret x') (ret x).
  Proof. intros -> i. reflexivity. Qed.
  Lemma mren_fail {X} (f : X -> X) : mren f fail fail.
  Proof. intros i. reflexivity. Qed.

  Lemma mren_bind {X Y} (f : X -> X) (g : Y -> Y) (m' m : M X) (k' k : X -> M Y) :
    mren f m' m -> (forall x, mren g (k' (f x)) (k x)) -> mren g (bind m' k') (bind m k).
  Proof.
    intros Hm Hk i. unfold bind. rewrite (Hm i). destruct (m i) as [[x j]|]; cbn [on_value]; [apply Hk | reflexivity].
  Qed.

  Lemma mren_same {X} (m : M X) : mren (fun x => x) m m.
  Proof. intros i. destruct (m i) as [[x j]|]; reflexivity. Qed.
  Lemma mren_touch (h : imports -> imports) : mren (fun u : unit => u) (touch h) (touch h).
  Proof. intros i. reflexivity. Qed.
  Lemma mren_typing {X} (f : X -> X) (g' g : imports -> X * imports) x l :
    (forall i, g i = (x, adds l i)) -> (forall i, g' i = (f x, adds l i)) -> mren f (lift g') (lift g).
  Proof. intros Hg Hg' i. unfold lift. rewrite Hg, Hg'. reflexivity. Qed.

  Lemma mren_mmap {X Y} (h : X -> X) (f : Y -> Y) (g' g : X -> M Y) l :
    (forall x, In x l -> mren f (g' (h x)) (g x)) -> mren (map f) (mmap g' (map h l)) (mmap g l).
  Proof.
    induction l as [|x l IH]; intros H; cbn [map mmap]; [apply mren_ret; reflexivity|].
    eapply mren_bind; [apply H; left; reflexivity|]. intros c.
    eapply mren_bind; [apply IH; intros y Hy; apply H; right; exact Hy|]. intros cs.
    apply mren_ret. reflexivity.
  Qed.
  Lemma mren_mfiltermap {X Y} (h : X -> X) (f : Y -> Y) (g' g : X -> M (option Y)) l :
    (forall x, In x l -> mren (option_map f) (g' (h x)) (g x)) ->
    mren (map f) (mfiltermap g' (map h l)) (mfiltermap g l).
  Proof.
    induction l as [|x l IH]; intros H; cbn [map mfiltermap]; [apply mren_ret; reflexivity|].
    eapply mren_bind; [apply H; left; reflexivity|]. intros c.
    eapply mren_bind; [apply IH; intros y Hy; apply H; right; exact Hy|]. intros cs.
    apply mren_ret. destruct c; reflexivity.
  Qed.
  Lemma mren_mopt {X Y} (h : X -> X) (f : Y -> Y) (g' g : X -> M Y) o :
    (forall x, o = Some x -> mren f (g' (h x)) (g x)) ->
    mren (option_map f) (mopt g' (option_map h o)) (mopt g o).
  Proof.
    intros H. destruct o as [x|]; cbn [option_map mopt]; [|apply mren_ret; reflexivity].
    eapply mren_bind; [apply H; reflexivity|]. intros c. apply mren_ret. reflexivity.
  Qed.

  Lemma mren_nm n : mren ren (lift (nm_to_py (rnm n))) (lift (nm_to_py n)).
  Proof.
    apply (mren_typing _ _ _ (nm_core n) (nm_adds n)); [apply nm_to_py_nf|].
    intros i. rewrite nm_to_py_nf, (nm_core_ren (rfs:=rfs)), nm_adds_ren. reflexivity.
  Qed.
  Lemma mren_bind_tn {Y} (g : Y -> Y) t (k' k : core -> M Y) :
    (forall lit gs, mren g (k' (ren (Type_ lit gs))) (k (Type_ lit gs))) ->
    mren g (bind (lift (tn_to_py (rtn t))) k') (bind (lift (tn_to_py t)) k).
  Proof.
    intros Hk i. unfold bind, lift. rewrite !tn_to_py_nf, (tn_core_ren (rfs:=rfs)), tn_adds_ren.
    destruct (tn_core_type t) as (lit & gs & ->). apply Hk.
  Qed.
  Lemma mren_opt_nm o : mren (option_map ren) (opt_nm_to_py (ronm o)) (opt_nm_to_py o).
  Proof.
    destruct o as [n|]; [|apply mren_ret; reflexivity].
    apply (mren_typing _ _ _ (Some (nm_core n)) (nm_adds n));
      intros i; rewrite nm_to_py_nf, ?(nm_core_ren (rfs:=rfs)), ?nm_adds_ren; reflexivity.
  Qed.

  Lemma post_ren st r' r : mren ren r' r -> mren ren (bind r' (post (rst st))) (bind r (post st)).
  Proof.
    intros Hr. eapply mren_bind; [exact Hr|]. intros c. unfold post.
    cbn [assign_to last_ret ren_state].
    eapply mren_bind with (f := ren).
    - destruct (assign_to st) as [[t n]|]; cbn [option_map ren_assign fst snd]; [|apply mren_ret; reflexivity].
      eapply mren_typing; [apply append_assign_nf|].
      intros i. rewrite append_assign_nf, asg_ren, asg_adds_ren. reflexivity.
    - intros c1. apply mren_ret. destruct (last_ret st); [apply append_ret_ren | reflexivity].
  Qed.

  Lemma ren_ast_A ty n : rena (A ty n) = A (ronm ty) (ren_node_with rho rfs rena n).
  Proof. reflexivity. Qed.
  Lemma ast_ty_ren a : ast_ty (rena a) = ronm (ast_ty a).
  Proof. destruct a; reflexivity. Qed.
  Lemma ivt_ren t e : is_valid_in_ternary (rena t) (rena e) = is_valid_in_ternary t e.
  Proof.
    destruct t as [ty nt], e as [te ne]. unfold is_valid_in_ternary. rewrite !ren_ast_A. cbn [ast_node].
    (* all but two cases of [nt] leave the same test on [ne] *)
    assert (H : match ren_node_with rho rfs rena ne with NBlock _ | NRaise _ => false | _ => true end
                = match ne with NBlock _ | NRaise _ => false | _ => true end) by (destruct ne; reflexivity).
    destruct nt; try exact H; reflexivity.
  Qed.
  Lemma is_branching_ren' c : is_branching (ren c) = is_branching c.
  Proof. exact (is_branching_ren c). Qed.
  Lemma tl_default_ren v : tl_default (ren v) = option_map ren (tl_default v).
  Proof.
    destruct v; try reflexivity. cbn [ren_core tl_default option_map]. rewrite !map_map. reflexivity.
  Qed.
  Lemma id_lit_ren c : id_lit (ren c) = option_map rho (id_lit c).
  Proof. destruct c; reflexivity. Qed.
  Lemma is_underscore_ren c : is_underscore (ren c) = is_underscore c.
  Proof. destruct c; reflexivity. Qed.
  Lemma stmts_ren b :
    match option_map ren b with Some x => block_stmts x | None => [] end
    = map ren (match b with Some x => block_stmts x | None => [] end).
  Proof. destruct b; [apply block_stmts_ren | reflexivity]. Qed.

  (** the arms of [match] and [handle] have the shape [case e : t => body] *)
  Lemma mren_arm {X} (f : X -> X) (F' F : ast -> option nm -> ast -> M X) (D' D : M X) x :
    mren f D' D ->
    (forall ty1 ty2 e t b, x = A ty1 (NCase (A ty2 (NExprType e t)) b) -> mren f (F' (rena e) (ronm t) (rena b)) (F e t b)) ->
    mren f (match rena x with A _ (NCase (A _ (NExprType e t)) body) => F' e t body | _ => D' end)
           (match x with A _ (NCase (A _ (NExprType e t)) body) => F e t body | _ => D end).
  Proof.
    intros HD HF. destruct x as [ty1 []]; try exact HD. destruct cond as [ty2 []]; try exact HD.
    apply (HF _ _ _ _ _ eq_refl).
  Qed.

  Lemma mren_vardef {X} (f : X -> X) (F' F : ast -> option nm -> M X) (D' D : M X) x :
    mren f D' D ->
    (forall ty v t e, x = A ty (NVarDef v t e) -> mren f (F' (rena v) (ronm t)) (F v t)) ->
    mren f (match rena x with A _ (NVarDef v t _) => F' v t | _ => D' end)
           (match x with A _ (NVarDef v t _) => F v t | _ => D end).
  Proof. intros HD HF. destruct x as [ty []]; try exact HD. apply (HF _ _ _ _ eq_refl). Qed.

  (** The state of the renamed call is a variable [s'] equal to [rst s]: where [conv] builds the state from
      an option that is still to be destructed, the two sides only become [rst _] of one another afterwards. *)
  Section Step.
    Variable n : nat.
    Hypothesis IH : forall x s s', s' = rst s -> size x < n -> mren ren (conv (rena x) s') (conv x s).

    Lemma IHlist l s s' : s' = rst s -> sizes l < n ->
      mren (map ren) (mmap (fun x => conv x s') (map rena l)) (mmap (fun x => conv x s) l).
    Proof. intros Hs Hl. apply mren_mmap. intros x Hx. apply IH; [exact Hs|]. pose proof (sizes_in x l Hx). lia. Qed.
    Lemma IHopt o s s' : s' = rst s -> sizeo o < n ->
      mren (option_map ren) (mopt (fun x => conv x s') (option_map rena o)) (mopt (fun x => conv x s) o).
    Proof. intros Hs Ho. apply mren_mopt. intros x ->. apply IH; [exact Hs | exact Ho]. Qed.

    (** a bind whose first computation is a recursive call *)
    Ltac rec_bind := eapply mren_bind; [first [apply IH | apply IHlist | apply IHopt]; [reflexivity | lia] | intros ?].
    (** sub-trees converted one after the other and put under a constructor that renaming maps to itself *)
    Ltac same_constructor := repeat rec_bind; apply mren_ret; reflexivity.

    Lemma conv_ren_step a : size a <= n -> forall st, mren ren (conv (rena a) (rst st)) (conv a st).
    Proof.
      destruct a as [aty nd]. rewrite size_unfold. intros Hn st. rewrite !conv_unfold. apply post_ren.
      rewrite ren_ast_A. unfold conv_result. destruct nd; cbn [ren_node_with]; cbv zeta; try same_constructor.
      - destruct interpolated; same_constructor.
      - (* NId *) apply mren_ret. cbn [ren_core]. rewrite c2p_ren. reflexivity.
      - (* NBin *) rec_bind. rec_bind. apply mren_ret, bin_core_ren.
      - (* NUn *)
        destruct o; try same_constructor.
        eapply mren_bind; [apply mren_touch|].
        intros _. same_constructor.
      - (* NTuple *)
        rec_bind. apply mren_ret. cbn [tup_lit with_last_ret with_assign ren_state]. destruct (tup_lit st); reflexivity.
      - (* NRange *)
        rec_bind. rec_bind. eapply mren_bind with (f := ren); [destruct step; cbn [option_map sizeo] in *; [apply IH; [reflexivity | lia] | same_constructor]|].
        intros cs. apply mren_ret. rewrite ren_call by reflexivity. cbn [ren_core map]. fxr n_range.
        destruct incl; reflexivity.
      - (* NSlice *)
        rec_bind. rec_bind. eapply mren_bind with (f := ren); [destruct step; cbn [option_map sizeo] in *; [apply IH; [reflexivity | lia] | same_constructor]|].
        intros cs. apply mren_ret. rewrite ren_call by reflexivity. cbn [ren_core map]. fxr n_slice.
        destruct incl; reflexivity.
      - (* NCall *)
        apply (mren_bind_tn _ (TN false name generics)). intros lit gs. rec_bind. apply mren_ret. rewrite ren_call; reflexivity.
      - (* NExprType *) apply IH; [reflexivity | lia].
      - (* NVarDef *)
        rec_bind. rewrite is_tuple_literal_ren.
        cbn [annotate expand_ty def_as_fun_arg with_last_ret with_assign ren_state].
        eapply mren_bind with (f := option_map ren).
        { destruct (annotate st && expand_ty st && negb (is_tuple_literal _)); [|same_constructor].
          destruct vty as [t|]; [apply (mren_opt_nm (Some t))|].
          destruct expr as [e|]; cbn [option_map]; [|same_constructor].
          rewrite ast_ty_ren. apply mren_opt_nm. }
        intros ty. destruct (def_as_fun_arg st); [same_constructor|].
        destruct expr as [e|]; cbn [option_map sizeo] in *.
        + rec_bind. rewrite !branch_match, is_branching_ren'. destruct (is_branching _); [|same_constructor].
          rewrite ast_ty_ren. apply IH; [reflexivity | lia].
        + rewrite !tl_match. apply mren_ret. cbn [ren_core]. rewrite tl_default_ren. reflexivity.
      - (* NReassign *) rec_bind. rec_bind. destruct (core_op op); [same_constructor | apply mren_fail].
      - (* NFunDef *)
        rec_bind. cbn [annotate interface with_last_ret with_assign ren_state].
        eapply mren_bind with (f := option_map ren); [destruct (annotate st); [apply mren_opt_nm | same_constructor]|].
        intros ty.
        eapply mren_bind with (f := fun d : list string * core => (fst d, ren (snd d))).
        { destruct body as [b|]; cbn [option_map sizeo] in *.
          - rewrite andb_false_r. eapply mren_bind; [apply IH; [destruct ret; reflexivity | lia]|]. intros c. same_constructor.
          - rewrite andb_true_r. destruct (interface st); [|same_constructor].
            eapply mren_bind; [apply mren_touch|].
            intros _. same_constructor. }
        intros d. rec_bind.
        rewrite !id_match, id_lit_ren. destruct (id_lit _) as [lit|]; cbn [option_map]; [|apply mren_fail].
        rewrite funop_of_ren. destruct (funop_of lit); apply mren_ret; cbn [ren_core fst snd]; [reflexivity|].
        rewrite eqb_const by in_list. destruct (String.eqb lit "size"); [fxr "__size__"|]; reflexivity.
      - (* NFunArg *)
        rec_bind. rewrite is_self_ren. cbn [annotate expand_ty with_last_ret with_assign ren_state].
        eapply mren_bind with (f := option_map ren);
          [destruct (annotate st && expand_ty st && negb (is_self _)); [apply mren_opt_nm | same_constructor]|].
        intros ty. same_constructor.
      - (* NReturn *)
        cbn [remove_ret with_last_ret with_assign ren_state].
        destruct (remove_ret st); [apply IH; [reflexivity | lia] | same_constructor].
      - (* NIfElse *)
        rec_bind. destruct el as [e|]; cbn [option_map sizeo] in *; [|same_constructor].
        rewrite ivt_ren. replace (match ronm aty with Some _ => true | None => false end)
          with (match aty with Some _ => true | None => false end) by (destruct aty; reflexivity).
        destruct (_ && is_valid_in_ternary t e); same_constructor.
      - (* NMatch *)
        rec_bind. eapply mren_bind with (f := map ren); [|intros cs; same_constructor].
        apply mren_mfiltermap. intros y Hy. pose proof (sizes_in y cases Hy) as Hsx.
        apply mren_arm; [same_constructor|]. intros ty1 ty2 e t b ->. rewrite !size_unfold in Hsx. same_constructor.
      - (* NHandle *)
        assert (He : size e < n) by lia.
        assert (Hcs : sizes cases < n) by lia.
        rewrite ast_ty_ren.
        eapply mren_bind with
          (f := fun vt : option core * option core => (option_map ren (fst vt), option_map ren (snd vt))).
        { apply mren_vardef; [same_constructor|]. intros ty v t e0 ->.
          rewrite size_unfold in He. eapply mren_bind; [apply mren_opt_nm|]. intros t'. same_constructor. }
        intros vt. cbn [fst snd]. rec_bind.
        eapply mren_bind with (f := map ren); [|intros ex; apply mren_ret; destruct (fst vt); reflexivity].
        apply mren_mmap. intros y Hy. pose proof (sizes_in y cases Hy) as Hsx.
        apply mren_arm; [apply mren_fail|]. intros ty1 ty2 ce [cty|] body ->; [|apply mren_fail].
        rewrite !size_unfold in Hsx. rec_bind.
        eapply mren_bind; [apply mren_nm|]. intros cl.
        eapply mren_bind; [apply IH; [destruct (fst vt); reflexivity | lia]|].
        intros b. apply mren_ret. rewrite !underscore_match, is_underscore_ren.
        destruct (is_underscore _); reflexivity.
      - (* NImport: the module after `from` is not renamed; it is the same sub-tree converted in the same state *)
        eapply mren_bind with (f := fun o : option core => o); [|intros f; same_constructor].
        apply mren_same.
      - (* NClass *)
        rec_bind. rec_bind. rec_bind.
        rewrite stmts_ren, assemble_class_ren.
        destruct (assemble_class _ _ _) as [[pn bs]|]; cbn [option_map hpair fst snd]; [|apply mren_fail].
        apply (mren_bind_tn _ (TN false name generics)). intros lit gs. same_constructor.
      - (* NParent *)
        apply (mren_bind_tn _ (TN false name generics)). intros lit gs. destruct args as [|x r]; [same_constructor|].
        eapply mren_bind; [apply (IHlist (x :: r)); [reflexivity | lia]|]. intros cs. apply mren_ret.
        rewrite ren_call; reflexivity.
      - (* NTypeDef *)
        eapply mren_bind with (f := map ren).
        { destruct isa as [nmi|]; cbn [ren_onm option_map]; [|same_constructor].
          eapply mren_bind; [apply mren_nm|]. intros t. same_constructor. }
        intros ps. rec_bind.
        rewrite stmts_ren, (assemble_class_ren _ [] _).
        destruct (assemble_class _ _ _) as [[pn bs]|]; cbn [option_map hpair fst snd]; [|apply mren_fail].
        eapply mren_bind with (f := map ren).
        { destruct abstract_parent; [same_constructor|].
          eapply mren_bind; [apply mren_touch|].
          intros _. apply mren_ret. rewrite map_app. cbn [map ren_core]. fxr "ABC". reflexivity. }
        intros pn'.
        apply (mren_bind_tn _ (TN false name generics)). intros lit gs. same_constructor.
      - (* NTypeAlias *)
        eapply mren_bind; [apply mren_touch|].
        intros _. eapply mren_bind; [apply mren_nm|]. intros t. apply mren_ret.
        cbn [ren_core map]. fxr "NewType". reflexivity.
      - (* NDict *)
        eapply mren_bind with (f := map (fun kv : core * core => (ren (fst kv), ren (snd kv)))); [|intros kvs; same_constructor].
        apply mren_mmap. intros kv Hkv. pose proof (sizesp_in kv elements Hkv) as Hs. cbn [fst snd]. same_constructor.
      - (* NListBuilder *) rec_bind. destruct conds as [|col rest]; cbn [map sizes] in *; [apply mren_fail | same_constructor].
      - (* NSetBuilder *) rec_bind. destruct conds as [|col rest]; cbn [map sizes] in *; [apply mren_fail | same_constructor].
      - (* NDictBuilder *) rec_bind. rec_bind. destruct conds as [|col rest]; cbn [map sizes] in *; [apply mren_fail | same_constructor].
      - (* NWith *) rec_bind. destruct alias as [al|]; cbn [option_map sizeo] in *; same_constructor.
    Qed.
  End Step.

  Theorem conv_ren a st : mren ren (conv (rena a) (rst st)) (conv a st).
  Proof.
    revert st. induction a as [a IH] using size_ind. apply (conv_ren_step (size a)); [|apply le_n].
    intros x s s' -> Hx. apply IH, Hx.
  Qed.
End Conv.

Lemma math_reserved : In "math" reserved.
Proof. apply in_consts. in_list. Qed.
Lemma gen_froms_reserved f n : In (f, n) gen_froms -> In n reserved.
Proof.
  intros H. apply in_consts. vm_compute in H.
  repeat (destruct H as [E|H]; [injection E as _ <-; in_list|]). destruct H.
Qed.

Section Statements.
  Variables rho rfs : string -> string.
  Hypothesis Hi : injective rho.
  Hypothesis Hf : fixes rho reserved.
  Let G : Good rho := {| Hinj := Hi; Hfix := Hf |}.
  Notation ren := (ren_core rho rfs).
  Notation rena := (ren_ast rho rfs).
  Notation rst := (ren_state rho rfs).

  Definition imports_fixed (i : imports) : Prop := ren_imports rho rfs i = i.

  Lemma iok_iff i : RenameTypes.iok (rho:=rho) (rfs:=rfs) i <-> imports_fixed i.
  Proof.
    split; [apply iok_ren_imports|]. unfold imports_fixed, ren_imports. destruct i as [a b c]. intros E.
    inversion E as [[E1 E2 E3]]. unfold RenameTypes.iok. cbn [imps typing_imps other_from]. rewrite !E1, !E2, !E3.
    repeat split; assumption.
  Qed.

  Theorem conv_equivariant_value a st i :
    conv (rena a) (rst st) i = option_map (fun r => (ren (fst r), snd r)) (conv a st i).
  Proof.
    rewrite (conv_ren (G:=G) (rfs:=rfs) a st i). destruct (conv a st i) as [[c j]|]; reflexivity.
  Qed.

  Theorem conv_keeps_imports_fixed a st i c j :
    imports_fixed i -> conv a st i = Some (c, j) -> imports_fixed j.
  Proof.
    intros H E. apply iok_iff. apply iok_iff in H. revert H.
    (* the record changes by registrations of the generator's own names only, all of them fixed *)
    apply (conv_steps (fun i j => RenameTypes.iok (rho:=rho) (rfs:=rfs) i -> RenameTypes.iok (rho:=rho) (rfs:=rfs) j)
             (fun _ H => H) (fun _ _ _ H1 H2 H => H2 (H1 H))
             (fun i => add_import_iok (rho:=rho) (rfs:=rfs) "math" i (Hf _ math_reserved))
             (fun f n i Hin => add_from_iok (rho:=rho) (rfs:=rfs) f n i (Hf _ (gen_froms_reserved f n Hin))) a st i c j E).
  Qed.

  Theorem conv_equivariant a st i :
    imports_fixed i ->
    conv (rena a) (rst st) (ren_imports rho rfs i) = option_map (ren_result rho rfs) (conv a st i).
  Proof.
    intros H. rewrite H, conv_equivariant_value.
    destruct (conv a st i) as [[c j]|] eqn:E; [|reflexivity]. cbn [option_map fst snd]. unfold ren_result.
    cbn [fst snd]. rewrite (conv_keeps_imports_fixed a st i c j H E). reflexivity.
  Qed.

  Lemma from_imps_fixed j : imports_fixed j ->
    map (fun kv : string * (list core * list core) => (fst kv, ren_names rho rfs (snd kv))) (from_imps j) = from_imps j.
  Proof.
    intros H. apply iok_iff in H. destruct H as (H1 & H2 & H3). unfold from_imps.
    destruct (typing_imps j) as [v|]; [|exact H3].
    apply map_insert_fixed; [|exact H3]. cbn [option_map] in H2. congruence.
  Qed.

  Lemma import_list_fixed j : imports_fixed j -> map ren (import_list j) = import_list j.
  Proof.
    intros H. unfold import_list. rewrite map_app. pose proof (from_imps_fixed j H) as Hfi.
    apply iok_iff in H. destruct H as (H1 & _). rewrite H1. f_equal.
    rewrite <- Hfi at 2. rewrite !map_map. apply map_ext. intros [k [ns al]]. reflexivity.
  Qed.

  Theorem gen_equivariant ann a : gen ann (rena a) = option_map ren (gen ann a).
  Proof.
    unfold gen. change (state0 ann) with (rst (state0 ann)) at 1.
    rewrite conv_equivariant_value.
    destruct (conv a (state0 ann) imports0) as [[c j]|] eqn:E; [|reflexivity]. cbn [option_map fst snd].
    assert (Hj : imports_fixed j).
    { apply (conv_keeps_imports_fixed a (state0 ann) imports0 c j); [|exact E]. reflexivity. }
    pose proof (import_list_fixed j Hj) as Hl.
    (* every result but a block is wrapped in the same way *)
    assert (Hw : forall c' c, c' = ren c ->
              (if imports_empty j then Some c' else Some (Block (import_list j ++ [c'])))
              = option_map ren (if imports_empty j then Some c else Some (Block (import_list j ++ [c])))).
    { intros c' c0 ->. destruct (imports_empty j); cbn [option_map ren_core]; rewrite ?map_app, ?Hl; reflexivity. }
    destruct c; try (apply Hw; reflexivity). cbn [option_map ren_core]. rewrite map_app, Hl. reflexivity.
  Qed.

  Theorem gen_verdict ann a : gen ann (rena a) = None <-> gen ann a = None.
  Proof.
    rewrite gen_equivariant. destruct (gen ann a); cbn [option_map]; split; intros E; try discriminate E; reflexivity.
  Qed.

  Lemma imports0_fixed : imports_fixed imports0.
  Proof. reflexivity. Qed.
End Statements.
