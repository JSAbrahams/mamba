(** * C16: assembling a class adds no need (and captures no [ABC]) *)
From Coq Require Import List String Bool Arith Lia.
From MambaModel Require Import model.Core gen.Names model.Convert proofs.ConvertProps proofs.ImportsProps
  proofs.ImportsNeeds.
Import ListNotations.
Local Open Scope string_scope.
Local Open Scope list_scope.

Lemma call_need_init : call_need (Id n_init) = []. Proof. reflexivity. Qed.
Lemma parent_init_needs p : incl (needs (fst (parent_init p))) (needs p).
Proof.
  assert (G : forall lit arg, incl (flat_map needs arg) (needs p) ->
              incl (needs (PropertyCall (Id lit) (FunctionCall (Id n_init) (Id n_self_ :: arg)))) (needs p)).
  { intros lit arg H. cbn [needs flat_map app]. rewrite call_need_init. exact H. }
  unfold parent_init.
  destruct p; try (cbn [fst]; apply G; intros n []).
  - (* FunctionCall *)
    match goal with |- context [FunctionCall ?f ?a] => rename f into fn; rename a into ar end.
    assert (Har : incl (flat_map needs ar) (needs (FunctionCall fn ar))).
    { cbn [needs]. auto with incl. }
    destruct fn; cbn [fst]; apply G; exact Har.
Qed.

Lemma block_stmts_needs b : incl (flat_map needs (block_stmts b)) (needs b).
Proof.
  destruct b; cbn [block_stmts flat_map]; try (rewrite app_nil_r; apply incl_refl).
  apply incl_refl.
Qed.

Lemma class_init_needs old args ps f :
  class_init old args ps = Some f ->
  incl (needs f) (oneeds needs old ++ flat_map needs args ++ flat_map needs ps).
Proof.
  unfold class_init. set (L := oneeds needs old ++ flat_map needs args ++ flat_map needs ps).
  assert (Hpi : incl (flat_map needs (map fst (map parent_init ps))) L).
  { apply flat_map_incl. intros x Hx. apply in_map_iff in Hx. destruct Hx as [pi [<- Hpi]].
    apply in_map_iff in Hpi. destruct Hpi as [p [<- Hp]].
    eapply incl_tran; [apply parent_init_needs|]. unfold L. auto with incl. }
  match goal with |- (let '(a, s) := ?p in _) = _ -> _ => destruct p as [a0 s0] eqn:Ep end.
  assert (Ha : incl (flat_map needs a0) L /\ incl (flat_map needs s0) L).
  { destruct old as [o|].
    - destruct o; inversion Ep; subst; try (split; [intros n [] | exact Hpi]).
      (* FunDef *)
      split.
      + unfold L. cbn [oneeds needs]. auto with incl.
      + rewrite flat_map_app. apply incl_app; [exact Hpi|].
        eapply incl_tran; [apply block_stmts_needs|]. unfold L. cbn [oneeds needs]. auto 6 with incl.
    - inversion Ep; subst. split; [|exact Hpi]. unfold L. auto with incl. }
  destruct Ha as [Ha Hs]. cbv zeta.
  set (vars := flat_map (fun a => match a with FunArg _ var _ _ => [var] | _ => [] end) args).
  set (fresh := filter _ vars).
  assert (Hv : forall v, In v vars -> incl (needs v) L).
  { intros v Hv. unfold vars in Hv. apply in_flat_map in Hv. destruct Hv as [a [Ha' Hv]].
    destruct a; try contradiction. destruct Hv as [<-|[]].
    unfold L. apply incl_appr, incl_appl. eapply incl_tran; [|apply incl_flat_map; exact Ha'].
    cbn [needs]. apply incl_appl, incl_refl. }
  destruct (s0 ++ map _ fresh) as [|x r] eqn:Es; [discriminate|]. intros E. inversion E. subst f. clear E.
  cbn [needs flat_map oneeds app]. apply incl_app.
  - (* arguments *)
    match goal with |- context [if ?b then _ else _] => destruct b end; [exact Ha|].
    cbn [flat_map needs app]. exact Ha.
  - change (needs x ++ flat_map needs r) with (flat_map needs (x :: r)).
    rewrite <- Es, flat_map_app. apply incl_app; [exact Hs|].
    apply flat_map_incl. intros y Hy. apply in_map_iff in Hy. destruct Hy as [v [<- Hv']].
    unfold fresh in Hv'. apply filter_In in Hv'. destruct Hv' as [Hv' _].
    cbn [needs app]. apply incl_app; [apply Hv; exact Hv' | apply Hv; exact Hv'].
Qed.

Lemma parent_name_ok p x : parent_name p = Some x -> head_ok p -> parent_need x = [] /\ incl (needs x) (needs p).
Proof.
  destruct p; cbn [parent_name]; try discriminate.
  - (* FunctionCall *)
    match goal with |- context [FunctionCall ?f ?a] => destruct f; try discriminate end.
    intros E Hh. inversion E; subst. cbn [head_ok] in Hh. split; [|intros n []].
    cbn [parent_need]. destruct (String.eqb_spec lit "ABC"); [contradiction | reflexivity].
  - intros E _. inversion E; subst. split; [reflexivity | apply incl_refl].
Qed.

(** the statements of an assembled class come from the body, the synthesised constructor or [pass];
    its parent names are the parents' *)
Lemma assemble_class_needs stmts args ps pn bs :
  assemble_class stmts args ps = Some (pn, bs) -> Forall head_ok ps ->
  flat_map parent_need pn = [] /\
  incl (flat_map needs pn) (flat_map needs ps) /\
  incl (flat_map needs bs) (flat_map needs stmts ++ flat_map needs args ++ flat_map needs ps).
Proof.
  unfold assemble_class. set (L := flat_map needs stmts ++ flat_map needs args ++ flat_map needs ps).
  set (m := body_entries 0 stmts []).
  assert (Hm : forall e, In e m -> incl (needs (snd (snd e))) L).
  { intros e He. destruct (body_entries_in _ _ _ _ He) as [[]|(k & s & H & ->)]. rewrite stmt_entry_stmt.
    unfold L. auto with incl. }
  set (old := match hm_get (Id n_init) m with Some (_, f) => Some f | None => None end).
  assert (Hold : incl (oneeds needs old) L).
  { unfold old. destruct (hm_get (Id n_init) m) as [[p f]|] eqn:Eg; [|intros n []].
    destruct (hm_get_in _ _ _ Eg) as [k' Hk]. exact (Hm _ Hk). }
  set (m' := match class_init old args ps with Some _ => _ | None => m end).
  assert (Hm' : forall e, In e m' -> incl (needs (snd (snd e))) L).
  { unfold m'. destruct (class_init old args ps) as [ni|] eqn:Ei; [|exact Hm].
    intros e He. destruct (hm_insert_inv _ _ _ _ He) as [->|H]; [|exact (Hm _ H)].
    cbn [snd]. eapply incl_tran; [apply (class_init_needs _ _ _ _ Ei)|].
    unfold L. auto with incl. }
  cbv zeta. destruct (existsb _ (map parent_name ps)) eqn:Ee; [discriminate|].
  intros E Hh. inversion E. subst pn bs. clear E. split; [|split].
  - (* no parent name is a captured ABC *)
    apply incl_l_nil. apply flat_map_incl. intros x Hx. apply in_flat_map in Hx. destruct Hx as [o [Ho Hx]].
    destruct o as [y|]; [|contradiction]. destruct Hx as [<-|[]].
    apply in_map_iff in Ho. destruct Ho as [p [Hp Hin]]. rewrite Forall_forall in Hh.
    destruct (parent_name_ok _ _ Hp (Hh _ Hin)) as [-> _]. apply incl_refl.
  - apply flat_map_incl. intros x Hx. apply in_flat_map in Hx. destruct Hx as [o [Ho Hx]].
    destruct o as [y|]; [|contradiction]. destruct Hx as [<-|[]].
    apply in_map_iff in Ho. destruct Ho as [p [Hp Hin]]. rewrite Forall_forall in Hh.
    destruct (parent_name_ok _ _ Hp (Hh _ Hin)) as [_ Hn].
    eapply incl_tran; [exact Hn | apply incl_flat_map; exact Hin].
  - assert (Hsorted : incl (flat_map needs (map snd (sort_by_pos (map snd m')))) L).
    { apply flat_map_incl. intros s Hs. apply in_map_iff in Hs. destruct Hs as [v [<- Hv]].
      apply (proj1 (sort_by_pos_in _ _)) in Hv. apply in_map_iff in Hv. destruct Hv as [e [<- He]]. exact (Hm' _ He). }
    destruct (map snd (sort_by_pos (map snd m'))); [cbn [flat_map needs app]; intros n [] | exact Hsorted].
Qed.
