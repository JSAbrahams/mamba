(** * Properties of the lexer model

    What [scan] consumes for a token is its spelling ([scan_tok_spec]).  The main loop is read
    through [step], the work of one [scan] call (one token, blank or line break), with the induction
    principles [tok_loop_ind] and [loop_inv].  On them rest: exact spans when every string literal
    is terminated and free of line breaks ([loop_positions]), as many Indents as Dedents when
    indentation goes by fours ([balanced]), and [single_eof].  Side conditions on the generated
    tables are computed ([tables_ok]). *)
From Coq Require Import List Ascii ZArith Bool Lia Arith.
From MambaModel Require Import model.LexTok gen.LexTables model.Lex.
Import ListNotations.
Local Open Scope Z_scope.

Definition no_nl (w : str) : bool := forallb (fun c => negb (Ascii.eqb c c_nl)) w.

Definition plain (t : token) : bool :=
  match t with MNL | MIndent | MDedent | MEof | MStr _ | MDocStr _ => false | _ => true end.

Definition is_stop (c : ascii) : bool := Ascii.eqb c c_nl || Ascii.eqb c c_cr || Ascii.eqb c c_sp.
Definition stop_free (w : str) : bool := forallb (fun c => negb (is_stop c)) w.

Definition op_ok (t : token) : bool :=
  plain t && stop_free (spell t)
  && match spell t with [] => false | x :: _ => negb (Ascii.eqb x c_hash) end.
Definition kw_ok (kt : str * token) : bool :=
  str_eqb (spell (snd kt)) (fst kt) && plain (snd kt) && no_nl (fst kt).
Definition keywords_ok : bool := forallb kw_ok keywords.
Definition tables_ok : bool := forallb op_ok op_tokens && keywords_ok.
Lemma tables_ok_true : tables_ok = true.
Proof. vm_compute. reflexivity. Qed.

Definition op_tokens_not_nl : bool :=
  forallb (fun t => match t with MNL => false | _ => true end) op_tokens.
Lemma op_tokens_not_nl_true : op_tokens_not_nl = true.
Proof. vm_compute. reflexivity. Qed.

Lemma forallb_impl {A} (p q : A -> bool) l :
  (forall x, p x = true -> q x = true) -> forallb p l = true -> forallb q l = true.
Proof.
  intros H. induction l as [|x l IH]; cbn; [easy|]. intros Hp. apply andb_prop in Hp as [Hx Hl].
  rewrite (H _ Hx), (IH Hl). reflexivity.
Qed.

Lemma no_nl_of (p : ascii -> bool) w : p c_nl = false -> forallb p w = true -> no_nl w = true.
Proof.
  intros Hp. apply forallb_impl. intros x Hx.
  destruct (Ascii.eqb_spec x c_nl) as [->|]; [congruence | reflexivity].
Qed.

Lemma op_token_ok t :
  In t op_tokens ->
  plain t = true /\ stop_free (spell t) = true
  /\ exists x w, spell t = x :: w /\ Ascii.eqb x c_hash = false.
Proof.
  intros Hin. pose proof tables_ok_true as H. apply andb_prop in H as [H _].
  rewrite forallb_forall in H. specialize (H _ Hin). unfold op_ok in H.
  apply andb_prop in H as [H H3]. apply andb_prop in H as [H1 H2].
  split; [exact H1|]. split; [exact H2|]. destruct (spell t) as [|x w]; [discriminate H3|].
  exists x, w. split; [reflexivity | apply negb_true_iff, H3].
Qed.

Lemma keyword_ok w t : In (w, t) keywords -> spell t = w /\ plain t = true /\ no_nl w = true.
Proof.
  intros Hin. pose proof tables_ok_true as H. apply andb_prop in H as [_ H].
  unfold keywords_ok in H. rewrite forallb_forall in H. specialize (H _ Hin). unfold kw_ok in H. cbn in H.
  apply andb_prop in H as [H H3]. apply andb_prop in H as [H1 H2].
  split; [apply str_eqb_eq, H1 | split; assumption].
Qed.

Lemma keyword_no_nl w t : In (w, t) keywords -> no_nl w = true.
Proof. intros H. apply (keyword_ok w t H). Qed.

Lemma starts_with_split w s : starts_with w s = true -> s = w ++ skipn (length w) s.
Proof.
  unfold starts_with. intros H. apply str_eqb_eq in H.
  rewrite H at 1. symmetry. rewrite <- H. rewrite H at 1.
  replace (length (firstn (length w) s)) with (length w) by (rewrite <- H; reflexivity).
  apply firstn_skipn.
Qed.

Lemma match_prefix_sound tbl s t rest :
  match_prefix tbl s = Some (t, rest) -> exists w, In (w, t) tbl /\ s = w ++ rest.
Proof.
  induction tbl as [|[w u] tbl IH]; cbn; [discriminate|].
  destruct (starts_with w s) eqn:Hs.
  - intros H. inversion H; subst. exists w. split; [left; reflexivity | apply starts_with_split, Hs].
  - intros H. destruct (IH H) as (w' & Hin & Heq). exists w'. split; [right; exact Hin | exact Heq].
Qed.

Lemma take_while_split p s a b : take_while p s = (a, b) -> s = a ++ b /\ forallb p a = true.
Proof.
  revert a b. induction s as [|c s IH]; cbn; intros a b H.
  - inversion H; subst. split; reflexivity.
  - destruct (p c) eqn:Hp.
    + destruct (take_while p s) as [a' b'] eqn:Ht. inversion H; subst.
      destruct (IH a' b eq_refl) as [-> Hall]. split; [reflexivity|]. cbn. rewrite Hp. exact Hall.
    + inversion H; subst. split; reflexivity.
Qed.

Lemma lookup_kw_sound tbl w t : lookup_kw tbl w = Some t -> In (w, t) tbl.
Proof.
  induction tbl as [|[k u] tbl IH]; cbn; [discriminate|].
  destruct (str_eqb k w) eqn:Hk.
  - intros H. inversion H; subst. apply str_eqb_eq in Hk. subst. left. reflexivity.
  - intros H. right. apply IH, H.
Qed.

Lemma op_table_entries w t :
  In (w, t) op_table -> (t = MNL /\ (w = [c_cr; c_nl] \/ w = [c_nl])) \/ (w = spell t /\ In t op_tokens).
Proof.
  unfold op_table. intros [H | [H | H]].
  - inversion H; subst. left. split; [reflexivity | left; reflexivity].
  - inversion H; subst. left. split; [reflexivity | right; reflexivity].
  - apply in_map_iff in H as (u & Hu & Hin). inversion Hu; subst. right. split; [reflexivity | exact Hin].
Qed.

Lemma no_nl_app a b : no_nl (a ++ b) = no_nl a && no_nl b.
Proof. unfold no_nl. apply forallb_app. Qed.
Lemma no_nl_cons c w : no_nl (c :: w) = negb (Ascii.eqb c c_nl) && no_nl w.
Proof. reflexivity. Qed.

Definition numtext (num exp : str) (en : bool) : str := if en then num ++ c_E :: exp else num.
Definition is_num_char (c : ascii) : bool := is_digit c || Ascii.eqb c c_E || Ascii.eqb c c_dot.

Lemma scan_number_spec fuel :
  forall num exp fl en s num' exp' fl' en' rest,
    scan_number fuel num exp fl en s = (num', exp', fl', en', rest) -> (en = false -> exp = []) ->
    exists w, s = w ++ rest /\ numtext num' exp' en' = numtext num exp en ++ w
              /\ forallb is_num_char w = true /\ (en' = false -> exp' = []).
Proof.
  induction fuel as [|fuel IH]; intros num exp fl en s num' exp' fl' en' rest H Hen;
    cbn [scan_number] in H.
  (* [C t s0]: the run continues from text [t] and input [s0] to the answer *)
  all: set (C := fun t s0 => exists w, s0 = w ++ rest /\ numtext num' exp' en' = t ++ w
                                       /\ forallb is_num_char w = true /\ (en' = false -> exp' = [])).
  all: assert (Hstop : (num, exp, fl, en, s) = (num', exp', fl', en', rest) -> C (numtext num exp en) s)
         by (intros E; inversion E; subst; exists []; rewrite app_nil_r; repeat split; assumption).
  - apply Hstop, H.
  - destruct s as [|c r]; [apply Hstop, H|].
    (* one more character [c] taken, leaving accumulators [n], [e], [en2] *)
    assert (Hgo : forall n e f en2,
              scan_number fuel n e f en2 r = (num', exp', fl', en', rest) ->
              (en2 = false -> e = []) -> numtext n e en2 = numtext num exp en ++ [c] ->
              is_num_char c = true -> C (numtext num exp en) (c :: r)).
    { intros n e f en2 E He Ht Hc. destruct (IH _ _ _ _ _ _ _ _ _ _ E He) as (w & -> & H1 & H2 & H3).
      exists (c :: w). split; [reflexivity|]. split; [|split; [cbn; rewrite Hc; exact H2 | exact H3]].
      rewrite H1, Ht, <- app_assoc. reflexivity. }
    unfold is_num_char in Hgo. destruct (is_digit c) eqn:Hd.
    + destruct en; eapply Hgo; try exact H; try reflexivity; try discriminate; try exact Hen.
      * unfold numtext. rewrite <- !app_assoc. reflexivity.
    + destruct (Ascii.eqb c c_E) eqn:HE.
      * destruct en; [apply Hstop, H|]. apply Ascii.eqb_eq in HE. subst c.
        eapply Hgo; [exact H | discriminate | | reflexivity].
        unfold numtext. rewrite (Hen eq_refl). reflexivity.
      * destruct (Ascii.eqb c c_dot) eqn:Hdot; [|apply Hstop, H].
        destruct (fl || en) eqn:Hfe; [apply Hstop, H|]. apply orb_false_elim in Hfe as [-> ->].
        assert (Hdotgo : scan_number fuel (num ++ [c]) exp true false r = (num', exp', fl', en', rest) ->
                         C (numtext num exp false) (c :: r))
          by (intros E; eapply Hgo; [exact E | exact Hen | reflexivity | reflexivity]).
        destruct r as [|c2 r2]; [apply Hdotgo, H|].
        destruct (Ascii.eqb c2 c_dot); [apply Hstop, H | apply Hdotgo, H].
Qed.

Definition ss0 : sstate :=
  {| s_content := []; s_bslash := false; s_depth := 0; s_cur_off := 1; s_cur := []; s_exprs := [] |}.

Inductive scan_view (c : ascii) (r : str) : scanned -> Prop :=
| SV_op t rest : match_prefix op_table (c :: r) = Some (t, rest) -> scan_view c r (STok t rest)
| SV_comment cm rest :
    c = c_hash -> take_while not_eol r = (cm, rest) -> scan_view c r (STok (MComment cm) rest)
| SV_string st rest :
    c = c_quote -> scan_string ss0 r = (st, rest) ->
    scan_view c r (SString (s_content st) (s_exprs st) rest)
| SV_space : c = c_sp -> scan_view c r (SSpace r)
| SV_num n e fl en rest :
    is_digit c = true -> scan_number (S (length r)) [c] [] false false r = (n, e, fl, en, rest) ->
    scan_view c r (STok (if en then MENum n e else if fl then MReal n else MInt n) rest)
| SV_word w rest :
    is_id_start c = true -> take_while is_id_char r = (w, rest) ->
    scan_view c r (STok (as_op_or_id (c :: w)) rest)
| SV_err e : scan_view c r (SErr e).

Lemma scan_view_ok c r : scan_view c r (scan c r).
Proof.
  unfold scan.
  destruct (match_prefix op_table (c :: r)) as [[t rest]|] eqn:Hm; [apply SV_op, Hm|].
  destruct (Ascii.eqb_spec c c_hash) as [->|_].
  { destruct (take_while not_eol r) eqn:E. eapply SV_comment; [reflexivity | exact E]. }
  destruct (Ascii.eqb_spec c c_quote) as [->|_].
  { fold ss0. destruct (scan_string ss0 r) eqn:E. eapply SV_string; [reflexivity | exact E]. }
  destruct (Ascii.eqb_spec c c_sp) as [->|_]; [apply SV_space; reflexivity|].
  destruct (Ascii.eqb c c_cr); [constructor|].
  destruct (Ascii.eqb c (ch 33)); [constructor|].
  destruct (is_digit c) eqn:Hd.
  { destruct (scan_number _ _ _ _ _ r) as [[[[n e] fl] en] rest] eqn:E. eapply SV_num; [exact Hd | exact E]. }
  destruct (is_id_start c) eqn:Hi; [|constructor].
  destruct (take_while is_id_char r) eqn:E. eapply SV_word; [exact Hi | exact E].
Qed.

Lemma scan_space c r rest : scan c r = SSpace rest -> c = c_sp /\ rest = r.
Proof. intros H. pose proof (scan_view_ok c r) as V. rewrite H in V. inversion V; subst. split; reflexivity. Qed.

Lemma scan_nl r : scan c_nl r = STok MNL r.
Proof. reflexivity. Qed.
Lemma scan_crnl r : scan c_cr (c_nl :: r) = STok MNL r.
Proof. reflexivity. Qed.
Lemma scan_cr_nil : scan c_cr [] = SErr ErrCR.
Proof. vm_compute. reflexivity. Qed.

(** The body of the [for c in it] loop of the string arm of [into_tokens]
    (everything after the [break] test), exactly as inlined in [Lex.scan_string]. *)
Definition sstep (st : sstate) (c : ascii) : sstate :=
  let content := s_content st ++ [c] in
  if s_bslash st then
    {| s_content := content; s_bslash := Ascii.eqb c c_bslash; s_depth := s_depth st;
       s_cur_off := s_cur_off st; s_cur := s_cur st; s_exprs := s_exprs st |}
  else
    let cur := if 0 <? s_depth st then s_cur st ++ [c] else s_cur st in
    let off := if Ascii.eqb c c_lcb && (s_depth st =? 0)
               then Z.of_nat (length content) + 1 else s_cur_off st in
    let depth := if Ascii.eqb c c_lcb then s_depth st + 1
                 else if Ascii.eqb c c_rcb then s_depth st - 1 else s_depth st in
    if (depth =? 0) && negb (match cur with [] => true | _ => false end) then
      let e := removelast cur in
      {| s_content := content; s_bslash := Ascii.eqb c c_bslash; s_depth := depth;
         s_cur_off := off; s_cur := [];
         s_exprs := match e with [] => s_exprs st | _ => s_exprs st ++ [(off, e)] end |}
    else
      {| s_content := content; s_bslash := Ascii.eqb c c_bslash; s_depth := depth;
         s_cur_off := off; s_cur := cur; s_exprs := s_exprs st |}.

Definition sstop (st : sstate) (c : ascii) : bool :=
  negb (s_bslash st) && (s_depth st =? 0) && Ascii.eqb c c_quote.

Lemma scan_string_unfold st c r :
  scan_string st (c :: r) = if sstop st c then (st, r) else scan_string (sstep st c) r.
Proof. reflexivity. Qed.

Lemma sstep_content st c : s_content (sstep st c) = s_content st ++ [c].
Proof.
  unfold sstep. destruct (s_bslash st); [reflexivity|].
  match goal with |- context [if ?b then _ else _] => destruct b end; reflexivity.
Qed.

(** The content of a string literal never starts with a quote: the first character is read
    with no backslash pending and outside braces, where a quote closes the literal.  So the
    doc-string test of the string arm never succeeds. *)
Lemma scan_string_hd : forall s st st' rest,
  scan_string st s = (st', rest) ->
  match s_content st with
  | [] => s_bslash st = false /\ s_depth st = 0
  | x :: _ => Ascii.eqb x c_quote = false
  end ->
  match s_content st' with [] => True | x :: _ => Ascii.eqb x c_quote = false end.
Proof.
  induction s as [|c s IH]; intros st st' rest E H; [cbn in E | rewrite scan_string_unfold in E].
  - inversion E; subst. destruct (s_content st'); [exact I | exact H].
  - destruct (sstop st c) eqn:Hc.
    + inversion E; subst. destruct (s_content st'); [exact I | exact H].
    + apply (IH _ _ _ E). rewrite sstep_content. destruct (s_content st) as [|x l]; [|exact H].
      destruct H as [Hb Hd]. unfold sstop in Hc. rewrite Hb, Hd in Hc. exact Hc.
Qed.

Lemma scanned_no_arm c r content exprs rest :
  scan c r = SString content exprs rest -> is_docstring_arm content = false.
Proof.
  intros H. pose proof (scan_view_ok c r) as V. rewrite H in V.
  inversion V as [| | st rest0 _ Hs | | | |]; subst.
  apply scan_string_hd in Hs; [|split; reflexivity].
  unfold is_docstring_arm, starts_with. destruct (s_content st) as [|x [|y l]]; try reflexivity;
    cbn [two_quotes length firstn str_eqb]; rewrite Ascii.eqb_sym, Hs; reflexivity.
Qed.

Theorem scan_tok_spec c r t rest :
  scan c r = STok t rest ->
  (t = MNL /\ (c :: r = [c_cr; c_nl] ++ rest \/ c :: r = [c_nl] ++ rest))
  \/ (plain t = true /\ spell t ++ rest = c :: r /\ no_nl (spell t) = true).
Proof.
  intros H. pose proof (scan_view_ok c r) as V. rewrite H in V. clear H.
  inversion V as [t0 rest0 Hm | cm rest0 Hc Ht | | | n e fl en rest0 Hd Hn | w rest0 Hi Ht | ]; subst.
  - apply match_prefix_sound in Hm as (w & Hin & Heq).
    apply op_table_entries in Hin as [[-> Hw] | [-> Hin]].
    + left. split; [reflexivity|]. destruct Hw as [-> | ->]; [left | right]; exact Heq.
    + right. destruct (op_token_ok t Hin) as (Hp & Hs & _).
      split; [exact Hp|]. split; [symmetry; exact Heq | exact (no_nl_of (fun c => negb (is_stop c)) _ eq_refl Hs)].
  - right. apply take_while_split in Ht as [-> Hall]. split; [reflexivity|]. split; [reflexivity|].
    apply (no_nl_of not_eol (c_hash :: cm) eq_refl). exact Hall.
  - right. apply scan_number_spec in Hn as (w & -> & Ht & Hw & _); [|reflexivity].
    assert (Hsp : spell (if en then MENum n e else if fl then MReal n else MInt n) = c :: w).
    { transitivity (numtext n e en); [destruct en; [reflexivity | destruct fl; reflexivity] | exact Ht]. }
    split; [destruct en; [|destruct fl]; reflexivity|]. rewrite Hsp. split; [reflexivity|].
    apply (no_nl_of is_num_char (c :: w) eq_refl). cbn [forallb]. unfold is_num_char at 1. rewrite Hd. exact Hw.
  - right. apply take_while_split in Ht as [-> Hall].
    assert (Hw : no_nl (c :: w) = true).
    { apply (no_nl_of is_id_char (c :: w) eq_refl). cbn [forallb]. unfold is_id_char at 1. rewrite Hi. exact Hall. }
    unfold as_op_or_id. destruct (lookup_kw keywords (c :: w)) as [k|] eqn:Hk.
    + apply lookup_kw_sound, keyword_ok in Hk as (Hs & Hp & _). rewrite Hs. repeat split; assumption.
    + repeat split; assumption.
Qed.

Definition p0 : cpos := {| line := 1; col := 1 |}.
Definition advance1 (p : cpos) (c : ascii) : cpos :=
  if Ascii.eqb c c_nl then {| line := line p + 1; col := 1 |}
  else {| line := line p; col := col p + 1 |}.
Definition advance (p : cpos) (w : str) : cpos := fold_left advance1 w p.

Lemma advance_app p a b : advance p (a ++ b) = advance (advance p a) b.
Proof. unfold advance. apply fold_left_app. Qed.

Lemma advance_no_nl w : forall p, no_nl w = true -> advance p w = offset_pos p (Z.of_nat (length w)).
Proof.
  induction w as [|c w IH]; intros p H.
  - cbn. unfold offset_pos. destruct p. cbn. f_equal. lia.
  - rewrite no_nl_cons in H. apply andb_prop in H as [Hc Hw]. apply negb_true_iff in Hc.
    cbn [advance fold_left]. fold (advance (advance1 p c) w). rewrite (IH _ Hw).
    unfold advance1. rewrite Hc. unfold offset_pos. cbn [line col length]. f_equal. lia.
Qed.

Lemma advance_nl p : advance p [c_nl] = {| line := line p + 1; col := 1 |}.
Proof. reflexivity. Qed.
Lemma advance_crnl p : advance p [c_cr; c_nl] = {| line := line p + 1; col := 1 |}.
Proof. reflexivity. Qed.
Lemma advance_sp p : advance p [c_sp] = offset_pos p 1.
Proof. reflexivity. Qed.

Lemma count_nl_no_nl s : no_nl s = true -> count_nl s = 0.
Proof.
  induction s as [|c s IH]; [reflexivity|]. rewrite no_nl_cons. intros H. apply andb_prop in H as [Hc Hs].
  apply negb_true_iff in Hc. cbn [count_nl]. rewrite Hc, (IH Hs). reflexivity.
Qed.

Definition nl_of (t : token) : Z := match t with MStr s | MDocStr s => count_nl s | _ => 0 end.

Lemma nl_of_no_nl t : no_nl (spell t) = true -> nl_of t = 0.
Proof.
  destruct t; try reflexivity; intros H; apply count_nl_no_nl.
  - change (spell (MStr s)) with ([c_quote] ++ s ++ [c_quote]) in H. rewrite !no_nl_app in H.
    apply andb_prop in H as [_ H]. apply andb_prop in H as [H _]. exact H.
  - change (spell (MDocStr s)) with ([c_hash; c_hash] ++ s) in H. rewrite no_nl_app in H.
    apply andb_prop in H as [_ H]. exact H.
Qed.

Lemma mk_lex_eq p t :
  mk_lex p t = {| lstart := p; lend := {| line := line p + nl_of t; col := col p + width t |};
                  ltok := t; lnested := false |}.
Proof. unfold mk_lex. destruct t; cbn [nl_of]; rewrite ?Z.add_0_r; reflexivity. Qed.

Lemma mk_lex_tok p t : ltok (mk_lex p t) = t.
Proof. reflexivity. Qed.

Lemma mk_lex_end p t : no_nl (spell t) = true -> lend (mk_lex p t) = advance p (spell t).
Proof.
  intros H. rewrite (advance_no_nl _ _ H), mk_lex_eq, (nl_of_no_nl t H), Z.add_0_r. reflexivity.
Qed.

Definition is_nl (t : token) : bool := match t with MNL => true | _ => false end.
Lemma is_nl_true t : is_nl t = true -> t = MNL.
Proof. destruct t; intros H; first [reflexivity | discriminate H]. Qed.
Lemma is_nl_false t : is_nl t = false -> t <> MNL.
Proof. intros H ->. discriminate H. Qed.

Definition emit_layout (st : state) : list lex :=
  let p := pos st in
  (match rev (newlines st) with [] => [] | nl :: _ => [nl] end)
  ++ (if cur_indent st <=? line_indent st then
        repeat (mk_lex p MIndent) (Z.to_nat (Z.quot (line_indent st - cur_indent st) 4))
      else
        repeat (mk_lex p MDedent) (Z.to_nat (Z.quot (cur_indent st - line_indent st) 4))
          ++ [mk_lex p MNL])
  ++ (match rev (newlines st) with [] => [] | _ :: r => rev r end).

Definition after_emit (st : state) (t : token) : state :=
  let p1 := offset_pos (pos st) (width t) in
  {| newlines := []; cur_indent := line_indent st; line_indent := line_indent st;
     token_this_line := true;
     pos := match t with MStr s | MDocStr s => offset_line p1 (count_nl s) | _ => p1 end |}.

Lemma state_token_nl st : state_token st MNL = (state_newline st, []).
Proof. reflexivity. Qed.

Lemma state_token_other st t :
  t <> MNL -> state_token st t = (after_emit st t, emit_layout st ++ [mk_lex (pos st) t]).
Proof.
  intros H. unfold emit_layout, after_emit. rewrite <- !app_assoc.
  destruct t; try reflexivity. contradiction.
Qed.

Lemma after_emit_pos st t :
  pos (after_emit st t) = {| line := line (pos st) + nl_of t; col := col (pos st) + width t |}.
Proof.
  unfold after_emit, offset_line, offset_pos.
  destruct t; cbn [pos nl_of line col]; rewrite ?Z.add_0_r; reflexivity.
Qed.

Lemma after_emit_advance st t :
  no_nl (spell t) = true -> pos (after_emit st t) = advance (pos st) (spell t).
Proof.
  intros H. rewrite (advance_no_nl _ _ H), after_emit_pos, (nl_of_no_nl t H), Z.add_0_r. reflexivity.
Qed.

Definition nls_ok (st : state) : Prop := Forall (fun l => ltok l = MNL) (newlines st).

Lemma nls_ok0 : nls_ok state0. Proof. constructor. Qed.
Lemma emit_nls_ok st t : nls_ok (after_emit st t).
Proof. constructor. Qed.
Lemma newline_nls_ok st : nls_ok st -> nls_ok (state_newline st).
Proof.
  unfold nls_ok, state_newline. cbn. intros H. apply Forall_app. split; [exact H|].
  constructor; [reflexivity | constructor].
Qed.
Lemma space_nls_ok st : nls_ok st -> nls_ok (state_space st).
Proof. unfold nls_ok, state_space. cbn. easy. Qed.

Lemma nls_ok_rev_parts st :
  nls_ok st ->
  Forall (fun l => ltok l = MNL) (match rev (newlines st) with [] => [] | nl :: _ => [nl] end)
  /\ Forall (fun l => ltok l = MNL) (match rev (newlines st) with [] => [] | _ :: r => rev r end).
Proof.
  unfold nls_ok. intros H. apply Forall_rev in H. destruct (rev (newlines st)) as [|x r].
  - split; constructor.
  - inversion H; subst. split; [constructor; [assumption | constructor] | apply Forall_rev; assumption].
Qed.

Definition is_layout (t : token) : bool :=
  match t with MNL | MIndent | MDedent => true | _ => false end.

Lemma emit_layout_is_layout st :
  nls_ok st -> Forall (fun l => is_layout (ltok l) = true) (emit_layout st).
Proof.
  intros Hn. destruct (nls_ok_rev_parts st Hn) as [Hp Hr]. unfold emit_layout.
  apply Forall_app. split; [|apply Forall_app; split].
  - revert Hp. apply Forall_impl. intros l ->. reflexivity.
  - destruct (cur_indent st <=? line_indent st).
    + apply Forall_forall. intros l Hl. apply repeat_spec in Hl. subst. reflexivity.
    + apply Forall_app. split.
      * apply Forall_forall. intros l Hl. apply repeat_spec in Hl. subst. reflexivity.
      * constructor; [reflexivity | constructor].
  - revert Hr. apply Forall_impl. intros l ->. reflexivity.
Qed.

Definition dres := ((list tl) + (cpos * lexerr) + unit)%type.
Definition nacc := (option (list lex) + (cpos * lexerr))%type.

Definition nest_step (d : str -> dres) (p : cpos) (a : nacc) (oe : Z * str) : nacc :=
  match a with
  | inl (Some ls) =>
      match d (snd oe) with
      | inl (inl toks) =>
          let off := offset_pos p (fst oe) in
          inl (Some (ls ++ flat_map (fun x =>
            nest (mk_lex (pos_offset (lstart (top x)) off) (ltok (top x))) :: inner x) toks))
      | inl (inr e) => inr e
      | inr _ => inl None
      end
  | other => other
  end.

Definition nest_all (d : str -> dres) (p : cpos) (exprs : list (Z * str)) : nacc :=
  fold_left (nest_step d p) exprs (inl (Some [])).

Inductive stepres :=
| Halt (e : cpos * lexerr)
| OOF
| Next (rest : str) (st : state) (out : list tl).

Definition emit (st : state) (t : token) (inn : list lex) (rest : str) : stepres :=
  Next rest (after_emit st t)
       (map tl0 (emit_layout st) ++ [{| top := mk_lex (pos st) t; inner := inn |}]).

Definition step (d : str -> dres) (c : ascii) (r : str) (st : state) : stepres :=
  match scan c r with
  | SErr e => Halt (pos st, e)
  | SSpace rest => Next rest (state_space st) []
  | STok t rest => if is_nl t then Next rest (state_newline st) [] else emit st t [] rest
  | SString content exprs rest =>
      match nest_all d (pos st) exprs with
      | inr e => Halt e
      | inl None => OOF
      | inl (Some inn) => emit st (MStr content) inn rest
      end
  end.

Lemma step_nl d r st : step d c_nl r st = Next r (state_newline st) [].
Proof. unfold step. rewrite scan_nl. reflexivity. Qed.
Lemma step_crnl d r st : step d c_cr (c_nl :: r) st = Next r (state_newline st) [].
Proof. unfold step. rewrite scan_crnl. reflexivity. Qed.

Lemma tok_loop_O s st acc : tok_loop 0 s st acc = inr tt.
Proof. reflexivity. Qed.

Lemma tok_loop_nil fuel st acc : tok_loop (S fuel) [] st acc = inl (inl (st, acc)).
Proof. reflexivity. Qed.

Lemma tok_loop_step fuel c r st acc :
  tok_loop (S fuel) (c :: r) st acc =
  match step (direct fuel) c r st with
  | Halt e => inl (inr e)
  | OOF => inr tt
  | Next rest st' out => tok_loop fuel rest st' (acc ++ out)
  end.
Proof.
  unfold step, emit. cbn [tok_loop].
  destruct (scan c r) as [t rest | content exprs rest | rest | e] eqn:Hs.
  - destruct (is_nl t) eqn:Ht.
    + apply is_nl_true in Ht. subst t. rewrite state_token_nl. reflexivity.
    + rewrite (state_token_other st t (is_nl_false t Ht)), map_app. reflexivity.
  - unfold string_tok. rewrite (scanned_no_arm _ _ _ _ _ Hs).
    change (fold_left _ exprs (inl (Some []))) with (nest_all (direct fuel) (pos st) exprs).
    destruct (nest_all (direct fuel) (pos st) exprs) as [[inn|]|err]; try reflexivity.
    rewrite (state_token_other st (MStr content)) by discriminate.
    rewrite rev_app_distr. cbn [rev app]. rewrite rev_involutive. reflexivity.
  - rewrite app_nil_r. reflexivity.
  - reflexivity.
Qed.

Lemma direct_S fuel s :
  direct (S fuel) s =
  match tok_loop fuel s state0 [] with
  | inl (inl (st, acc)) => inl (inl (docstring_pass (acc ++ map tl0 (flush_indents st))))
  | inl (inr e) => inl (inr e)
  | inr u => inr u
  end.
Proof. reflexivity. Qed.

(* from here on the loop is used through the equations above: unfolding the mutual fixpoint
   by [cbn] or [simpl] would copy its whole body into the goal *)
Global Opaque tok_loop direct.

Definition is_indent (t : token) : bool := match t with MIndent => true | _ => false end.
Definition is_dedent (t : token) : bool := match t with MDedent => true | _ => false end.
Definition is_eof (t : token) : bool := match t with MEof => true | _ => false end.
Definition is_strlike (t : token) : bool := match t with MStr _ | MDocStr _ => true | _ => false end.

Definition tok_of (x : scanned) : option (token * str) :=
  match x with
  | STok t rest => Some (t, rest)
  | SString content _ rest => Some (MStr content, rest)
  | _ => None
  end.

Lemma step_cases d c r st rest st' out :
  step d c r st = Next rest st' out ->
  (scan c r = SSpace rest /\ st' = state_space st /\ out = [])
  \/ (scan c r = STok MNL rest /\ st' = state_newline st /\ out = [])
  \/ (exists t inn, t <> MNL /\ tok_of (scan c r) = Some (t, rest) /\ st' = after_emit st t
        /\ out = map tl0 (emit_layout st) ++ [{| top := mk_lex (pos st) t; inner := inn |}]).
Proof.
  unfold step, emit. destruct (scan c r) as [t rest0 | content exprs rest0 | rest0 | e]; cbn [tok_of].
  - destruct (is_nl t) eqn:Ht; intros H; inversion H; subst.
    + apply is_nl_true in Ht. subst t. auto.
    + right; right. exists t, []. split; [apply is_nl_false, Ht | auto].
  - destruct (nest_all d (pos st) exprs) as [[inn|]|err]; try discriminate.
    intros H. inversion H; subst. right; right. exists (MStr content), inn. split; [discriminate | auto].
  - intros H. inversion H. auto.
  - discriminate.
Qed.

Lemma tok_loop_ind (P : nat -> str -> state -> list tl -> Prop) (Q : state -> list tl -> Prop) :
  (forall fuel st acc, P (S fuel) [] st acc -> Q st acc) ->
  (forall fuel c r st acc rest st' out,
      P (S fuel) (c :: r) st acc -> step (direct fuel) c r st = Next rest st' out ->
      P fuel rest st' (acc ++ out)) ->
  forall fuel s st acc st' acc',
    P fuel s st acc -> tok_loop fuel s st acc = inl (inl (st', acc')) -> Q st' acc'.
Proof.
  intros Hnil Hstep. induction fuel as [|fuel IH]; intros s st acc st' acc' HP H.
  - rewrite tok_loop_O in H. discriminate.
  - destruct s as [|c r].
    + rewrite tok_loop_nil in H. inversion H; subst. eapply Hnil, HP.
    + rewrite tok_loop_step in H.
      destruct (step (direct fuel) c r st) as [e| |rest st1 out] eqn:Hs; try discriminate.
      eapply IH; [|exact H]. eapply Hstep; eassumption.
Qed.

Lemma loop_inv (I : state -> Prop) :
  (forall st, I st -> I (state_newline st)) -> (forall st, I st -> I (state_space st)) ->
  (forall st t, I st -> I (after_emit st t)) ->
  forall fuel s st acc st' acc', I st -> tok_loop fuel s st acc = inl (inl (st', acc')) -> I st'.
Proof.
  intros Hn Hs Ht. apply (tok_loop_ind (fun _ _ st _ => I st) (fun st _ => I st)); [auto|].
  intros fuel c r st acc rest st' out HI H.
  apply step_cases in H as [(_ & -> & _) | [(_ & -> & _) | (t & inn & Hne & _ & -> & _)]]; auto.
Qed.

Lemma tops_app (a b : list tl) : map top (a ++ b) = map top a ++ map top b.
Proof. apply map_app. Qed.
Lemma tops_tl0 (ls : list lex) : map top (map tl0 ls) = ls.
Proof. induction ls as [|l ls IH]; cbn; [reflexivity | rewrite IH; reflexivity]. Qed.
Lemma tops_out (ls : list lex) x inn :
  map top (map tl0 ls ++ [{| top := x; inner := inn |}]) = ls ++ [x].
Proof. rewrite tops_app, tops_tl0. reflexivity. Qed.

Lemma tok_of_kind c r t rest :
  tok_of (scan c r) = Some (t, rest) -> is_indent t = false /\ is_dedent t = false /\ is_eof t = false.
Proof.
  destruct (scan c r) as [t0 rest0 | content exprs rest0 | |] eqn:Hs; try discriminate; intros H;
    inversion H; subst; [|repeat split].
  apply scan_tok_spec in Hs as [[-> _] | [Hp _]]; [repeat split|].
  destruct t; try discriminate Hp; repeat split.
Qed.

Definition tok_ok (input : str) (l : lex) : Prop :=
  exists pre post,
    input = pre ++ spell (ltok l) ++ post
    /\ lstart l = advance p0 pre
    /\ lend l = advance (lstart l) (spell (ltok l)).

Definition span_ok (input : str) (l : lex) : Prop := synthetic (ltok l) = true \/ tok_ok input l.

(** The runs [loop_positions] covers: every string literal is terminated (otherwise finding D29),
    has no line break inside (D27) and is not the (unreachable) in-arm doc-string. *)
Fixpoint clean (fuel : nat) (s : str) : bool :=
  match fuel with
  | O => true
  | S fuel =>
      match s with
      | [] => true
      | c :: r =>
          match scan c r with
          | SErr _ => true
          | SSpace rest => clean fuel rest
          | STok _ rest => clean fuel rest
          | SString content _ rest =>
              negb (is_docstring_arm content) && no_nl content
              && str_eqb (c :: r) (c_quote :: content ++ c_quote :: rest) && clean fuel rest
          end
      end
  end.

Lemma clean_tok fuel c r t rest :
  clean (S fuel) (c :: r) = true -> tok_of (scan c r) = Some (t, rest) -> t <> MNL ->
  spell t ++ rest = c :: r /\ no_nl (spell t) = true /\ clean fuel rest = true.
Proof.
  cbn [clean]. destruct (scan c r) as [t0 rest0 | content exprs rest0 | |] eqn:Hs; try discriminate;
    intros Hc H Hne; inversion H; subst.
  - apply scan_tok_spec in Hs as [[Hn _] | (_ & H1 & H2)]; [contradiction | auto].
  - apply andb_prop in Hc as [Hc Hrest]. apply andb_prop in Hc as [Hc Hterm].
    apply andb_prop in Hc as [_ Hnl]. apply str_eqb_eq in Hterm.
    change (spell (MStr content)) with (c_quote :: content ++ [c_quote]).
    split; [rewrite Hterm; cbn [app]; rewrite <- app_assoc; reflexivity|]. split; [|exact Hrest].
    rewrite no_nl_cons, no_nl_app, Hnl. reflexivity.
Qed.

Lemma Forall_ok_layout input layout :
  Forall (fun l => is_layout (ltok l) = true) layout -> Forall (span_ok input) layout.
Proof. apply Forall_impl. intros l H. left. destruct (ltok l); try discriminate H; reflexivity. Qed.

Theorem loop_positions input fuel s st acc pre st' acc' :
  input = pre ++ s -> pos st = advance p0 pre -> nls_ok st -> clean fuel s = true ->
  Forall (span_ok input) (map top acc) ->
  tok_loop fuel s st acc = inl (inl (st', acc')) ->
  Forall (span_ok input) (map top acc').
Proof.
  intros Hin Hpos Hnls Hclean Hacc.
  apply (tok_loop_ind
           (fun fuel s st acc => (exists pre, input = pre ++ s /\ pos st = advance p0 pre) /\ nls_ok st
                                 /\ clean fuel s = true /\ Forall (span_ok input) (map top acc))
           (fun _ acc => Forall (span_ok input) (map top acc))); [tauto | | eauto 6].
  clear. intros fuel c r st acc rest st' out ((pre & Hin & Hpos) & Hnls & Hclean & Hacc) H.
  (* [w] is what the step consumed *)
  assert (Hpre : forall w, c :: r = w ++ rest -> pos st' = advance (pos st) w ->
                   exists pre', input = pre' ++ rest /\ pos st' = advance p0 pre').
  { intros w Hw Hp. exists (pre ++ w). rewrite Hin, Hw, app_assoc, advance_app, <- Hpos. auto. }
  apply step_cases in H as [(Hs & -> & ->) | [(Hs & -> & ->) | (t & inn & Hne & Hs & -> & ->)]].
  - cbn [clean] in Hclean. rewrite Hs in Hclean. apply scan_space in Hs as [-> ->].
    rewrite app_nil_r. split; [apply (Hpre [c_sp]); reflexivity|].
    split; [apply space_nls_ok, Hnls | split; assumption].
  - cbn [clean] in Hclean. rewrite Hs in Hclean. rewrite app_nil_r.
    split; [|split; [apply newline_nls_ok, Hnls | split; assumption]].
    apply scan_tok_spec in Hs as [[_ [Hw | Hw]] | [Hp _]]; [| | discriminate Hp]; eapply Hpre; eauto.
  - destruct (clean_tok _ _ _ _ _ Hclean Hs Hne) as (Hsp & Hnl & Hrest).
    split; [apply (Hpre (spell t)); [symmetry; exact Hsp | apply after_emit_advance, Hnl]|].
    split; [apply emit_nls_ok|]. split; [exact Hrest|].
    rewrite tops_app, tops_out. apply Forall_app. split; [exact Hacc|].
    apply Forall_app. split; [apply Forall_ok_layout, emit_layout_is_layout, Hnls|].
    constructor; [|constructor]. right. exists pre, rest.
    rewrite mk_lex_tok. split; [rewrite Hin, <- Hsp; reflexivity|]. split; [exact Hpos | apply mk_lex_end, Hnl].
Qed.

Definition cnt (p : token -> bool) (ls : list lex) : Z :=
  Z.of_nat (length (filter (fun l => p (ltok l)) ls)).

Lemma cnt_app p a b : cnt p (a ++ b) = cnt p a + cnt p b.
Proof. unfold cnt. rewrite filter_app, app_length. lia. Qed.
Lemma cnt_nil p : cnt p [] = 0. Proof. reflexivity. Qed.
Lemma cnt_one p l : cnt p [l] = if p (ltok l) then 1 else 0.
Proof. unfold cnt. cbn. destruct (p (ltok l)); reflexivity. Qed.
Lemma cnt_cons p l ls : cnt p (l :: ls) = (if p (ltok l) then 1 else 0) + cnt p ls.
Proof. change (l :: ls) with ([l] ++ ls). rewrite cnt_app, cnt_one. reflexivity. Qed.
Lemma cnt_repeat p l n : cnt p (repeat l n) = if p (ltok l) then Z.of_nat n else 0.
Proof.
  unfold cnt. induction n as [|n IH]; cbn [repeat filter]; [destruct (p (ltok l)); reflexivity|].
  destruct (p (ltok l)) eqn:Hp; cbn [length]; rewrite ?Hp in IH; lia.
Qed.
Lemma cnt_zero p ls : Forall (fun l => p (ltok l) = false) ls -> cnt p ls = 0.
Proof.
  unfold cnt. induction 1 as [|l ls Hl _ IH]; [reflexivity|]. cbn [filter]. rewrite Hl. exact IH.
Qed.

Definition open_indents (st : state) (tops : list lex) : Prop :=
  1 <= line_indent st /\
  exists k, 0 <= k /\ cur_indent st = 1 + 4 * k /\ cnt is_indent tops = cnt is_dedent tops + k.

Lemma quot4 m : 0 <= m -> Z.quot (4 * m) 4 = m.
Proof. intros H. rewrite Z.mul_comm. apply Z.quot_mul. lia. Qed.

Lemma emit_counts st k :
  nls_ok st -> 1 <= line_indent st -> (line_indent st - 1) mod 4 = 0 ->
  0 <= k -> cur_indent st = 1 + 4 * k ->
  exists k', 0 <= k' /\ line_indent st = 1 + 4 * k'
             /\ cnt is_indent (emit_layout st) - cnt is_dedent (emit_layout st) = k' - k.
Proof.
  intros Hn Hli Hmod Hk Hcur.
  destruct (nls_ok_rev_parts st Hn) as [Hp Hr].
  exists ((line_indent st - 1) / 4).
  pose proof (Z.div_mod (line_indent st - 1) 4 ltac:(lia)) as Hdm.
  set (j := (line_indent st - 1) / 4) in *.
  assert (Hj0 : 0 <= j) by (apply Z.div_pos; lia).
  assert (Hj : line_indent st = 1 + 4 * j) by lia.
  split; [exact Hj0|]. split; [exact Hj|]. unfold emit_layout.
  assert (Hnl : forall p ls, p MNL = false -> Forall (fun l => ltok l = MNL) ls -> cnt p ls = 0).
  { intros p ls Hpn H. apply cnt_zero. revert H. apply Forall_impl. intros l ->. exact Hpn. }
  rewrite !cnt_app, !(Hnl _ _ eq_refl Hp), !(Hnl _ _ eq_refl Hr).
  destruct (cur_indent st <=? line_indent st) eqn:Hle.
  - apply Z.leb_le in Hle. rewrite !cnt_repeat, !mk_lex_tok. cbn [is_indent is_dedent].
    replace (line_indent st - cur_indent st) with (4 * (j - k)) by lia.
    rewrite quot4 by lia. rewrite Z2Nat.id by lia. lia.
  - apply Z.leb_gt in Hle. rewrite !cnt_app, !cnt_repeat, !cnt_one, !mk_lex_tok. cbn [is_indent is_dedent].
    replace (cur_indent st - line_indent st) with (4 * (k - j)) by lia.
    rewrite quot4 by lia. rewrite Z2Nat.id by lia. lia.
Qed.

(** The runs [balanced] covers: every token other than a line break is read at an indentation
    that is a multiple of four (otherwise finding D18). *)
Fixpoint aligned (fuel : nat) (s : str) (st : state) : bool :=
  match fuel with
  | O => true
  | S fuel =>
      match s with
      | [] => true
      | c :: r =>
          match scan c r with
          | SErr _ => true
          | SSpace rest => aligned fuel rest (state_space st)
          | STok t rest =>
              (is_nl t || ((line_indent st - 1) mod 4 =? 0))
              && aligned fuel rest (fst (state_token st t))
          | SString content _ rest =>
              ((line_indent st - 1) mod 4 =? 0)
              && aligned fuel rest (fst (state_token st (string_tok content)))
          end
      end
  end.

Lemma aligned_tok fuel c r st t rest :
  aligned (S fuel) (c :: r) st = true -> tok_of (scan c r) = Some (t, rest) -> t <> MNL ->
  (line_indent st - 1) mod 4 = 0 /\ aligned fuel rest (after_emit st t) = true.
Proof.
  cbn [aligned]. destruct (scan c r) as [t0 rest0 | content exprs rest0 | |] eqn:Hs; try discriminate;
    intros Ha H Hne; inversion H; subst.
  - rewrite (state_token_other st _ Hne) in Ha. apply andb_prop in Ha as [Hm Ha].
    destruct (is_nl t) eqn:Ht; [apply is_nl_true in Ht; contradiction|]. apply Z.eqb_eq in Hm. auto.
  - unfold string_tok in Ha. rewrite (scanned_no_arm _ _ _ _ _ Hs), (state_token_other st _ Hne) in Ha.
    apply andb_prop in Ha as [Hm Ha]. apply Z.eqb_eq in Hm. auto.
Qed.

Theorem loop_balance fuel s st acc st' acc' :
  open_indents st (map top acc) -> nls_ok st -> aligned fuel s st = true ->
  tok_loop fuel s st acc = inl (inl (st', acc')) ->
  open_indents st' (map top acc').
Proof.
  intros HJ Hnls Hal.
  apply (tok_loop_ind
           (fun fuel s st acc => open_indents st (map top acc) /\ nls_ok st /\ aligned fuel s st = true)
           (fun st acc => open_indents st (map top acc))); [tauto | | auto].
  clear. intros fuel c r st acc rest st' out ([Hli (k & Hk & Hcur & Hcnt)] & Hnls & Hal) H.
  apply step_cases in H as [(Hs & -> & ->) | [(Hs & -> & ->) | (t & inn & Hne & Hs & -> & ->)]].
  - cbn [aligned] in Hal. rewrite Hs in Hal. rewrite app_nil_r.
    split; [|split; [apply space_nls_ok, Hnls | exact Hal]].
    split; [unfold state_space; cbn; destruct (token_this_line st); lia | eauto].
  - cbn [aligned] in Hal. rewrite Hs in Hal. rewrite app_nil_r.
    split; [|split; [apply newline_nls_ok, Hnls | exact Hal]]. split; [cbn; lia | eauto].
  - destruct (aligned_tok _ _ _ _ _ _ Hal Hs Hne) as [Hmod Hal'].
    destruct (tok_of_kind _ _ _ _ Hs) as (Hi & Hd & _).
    destruct (emit_counts st k Hnls Hli Hmod Hk Hcur) as (k' & Hk' & Hcur' & Hdiff).
    split; [|split; [apply emit_nls_ok | exact Hal']]. split; [exact Hli|].
    exists k'. split; [exact Hk'|]. split; [exact Hcur'|].
    rewrite tops_app, tops_out, !cnt_app, !cnt_one, mk_lex_tok, Hi, Hd. lia.
Qed.

Theorem loop_no_eof fuel s st acc st' acc' :
  Forall (fun l => is_eof (ltok l) = false) (map top acc) -> nls_ok st ->
  tok_loop fuel s st acc = inl (inl (st', acc')) ->
  Forall (fun l => is_eof (ltok l) = false) (map top acc').
Proof.
  intros Hacc Hnls.
  apply (tok_loop_ind
           (fun _ _ st acc => Forall (fun l => is_eof (ltok l) = false) (map top acc) /\ nls_ok st)
           (fun _ acc => Forall (fun l => is_eof (ltok l) = false) (map top acc))); [tauto | | auto].
  clear. intros fuel c r st acc rest st' out [Hacc Hnls] H.
  apply step_cases in H as [(_ & -> & ->) | [(_ & -> & ->) | (t & inn & Hne & Hs & -> & ->)]].
  - rewrite app_nil_r. split; [exact Hacc | apply space_nls_ok, Hnls].
  - rewrite app_nil_r. split; [exact Hacc | apply newline_nls_ok, Hnls].
  - split; [|apply emit_nls_ok]. rewrite tops_app, tops_out.
    apply Forall_app. split; [exact Hacc|]. apply Forall_app. split.
    + generalize (emit_layout_is_layout st Hnls). apply Forall_impl.
      intros l Hl. destruct (ltok l); try discriminate Hl; reflexivity.
    + constructor; [apply (tok_of_kind _ _ _ _ Hs) | constructor].
Qed.

Definition ocnt (p : token -> bool) (o : option tl) : Z :=
  match o with Some x => if p (ltok (top x)) then 1 else 0 | None => 0 end.

Lemma doc_get_some f m b d :
  doc_get f m b = Some d ->
  exists lf lm lb fs ds bs,
    f = Some lf /\ m = Some lm /\ b = Some lb /\ ltok lf = MStr fs /\ ltok lm = MStr ds
    /\ ltok lb = MStr bs /\ d = mk_lex (lstart lf) (MDocStr ds).
Proof.
  unfold doc_get. destruct f as [lf|], m as [lm|], b as [lb|]; try discriminate.
  destruct (ltok lf) eqn:Hf; try discriminate.
  destruct (ltok lm) eqn:Hm; try discriminate.
  destruct (ltok lb) eqn:Hb; try discriminate.
  match goal with |- (if ?c then _ else _) = _ -> _ => destruct c end; [|discriminate].
  intros H. inversion H; subst. repeat eexists; eassumption.
Qed.

Lemma otop_some o l : otop o = Some l -> exists x, o = Some x /\ top x = l.
Proof. destruct o as [x|]; cbn; [|discriminate]. intros H. inversion H. exists x. split; reflexivity. Qed.

Lemma doc_pass_cnt p :
  (forall s, p (MStr s) = false) -> (forall s, p (MDocStr s) = false) ->
  forall input m b,
    cnt p (map top (doc_pass None m b input)) = ocnt p m + ocnt p b + cnt p (map top input).
Proof.
  intros Hs Hd. induction input as [|l rest IH]; intros m b.
  - cbn [doc_pass app map]. destruct m as [x|], b as [y|]; cbn [app map ocnt];
      rewrite ?cnt_cons, ?cnt_nil; lia.
  - cbn [doc_pass].
    destruct (doc_get (otop m) (otop b) (otop (Some l))) as [d|] eqn:Hg.
    + apply doc_get_some in Hg as (lf & lm & lb & fs & ds & bs & Hf & Hm & Hb & Htf & Htm & Htb & ->).
      apply otop_some in Hf as (xf & -> & <-). apply otop_some in Hm as (xm & -> & <-).
      cbn in Hb. inversion Hb; subst lb.
      cbn [map top tl0]. rewrite !cnt_cons, mk_lex_tok, Hd, IH.
      cbn [ocnt]. rewrite Htf, Htm, Htb, !Hs. lia.
    + destruct m as [x|].
      * cbn [map]. rewrite !cnt_cons, IH. cbn [ocnt]. lia.
      * rewrite IH. cbn [ocnt map]. rewrite cnt_cons. lia.
Qed.

Definition is_docstr (t : token) : bool := match t with MDocStr _ => true | _ => false end.

Lemma doc_pass_in (P : lex -> Prop) :
  (forall l, is_docstr (ltok l) = true -> P l) ->
  forall input m b,
    (forall x, m = Some x -> P (top x)) -> (forall x, b = Some x -> P (top x)) ->
    Forall P (map top input) ->
    Forall P (map top (doc_pass None m b input)).
Proof.
  intros Hdoc. induction input as [|l rest IH]; intros m b Hm Hb Hin.
  - cbn [doc_pass app]. destruct m as [x|], b as [y|]; cbn [app map]; repeat constructor; auto.
  - cbn [doc_pass]. inversion Hin as [|? ? Hl Hrest]; subst.
    destruct (doc_get (otop m) (otop b) (otop (Some l))) as [d|] eqn:Hg.
    + apply doc_get_some in Hg as (lf & lm & lb & fs & ds & bs & _ & _ & _ & _ & _ & _ & ->).
      cbn [map top tl0]. constructor; [apply Hdoc; reflexivity|].
      apply IH; [discriminate | discriminate | exact Hrest].
    + destruct m as [x|].
      * cbn [map]. constructor; [apply Hm; reflexivity|].
        apply IH; [exact Hb | intros y Hy; inversion Hy; subst; exact Hl | exact Hrest].
      * apply IH; [exact Hb | intros y Hy; inversion Hy; subst; exact Hl | exact Hrest].
Qed.

Definition run_fuel (s : str) : nat := S (S (length s)).

Definition run_tls (s : str) : option (list tl) :=
  match tok_loop (run_fuel s) s state0 [] with
  | inl (inl (st, acc)) =>
      let ts := acc ++ map tl0 (flush_indents st) in
      Some (docstring_pass (ts ++ [tl0 (mk_lex (last_end ts) MEof)]))
  | _ => None
  end.

Lemma tokenize_run s ts :
  tokenize s = LexOk ts <-> exists tls, run_tls s = Some tls /\ ts = flatten tls.
Proof.
  unfold tokenize, tokenize_fuel, run_tls, run_fuel.
  destruct (tok_loop (S (S (length s))) s state0 []) as [[[st acc]|[p e]]|u]; split.
  - intros H. inversion H; subst. eexists. split; reflexivity.
  - intros (tls & H & ->). inversion H; subst. reflexivity.
  - discriminate.
  - intros (tls & H & _). discriminate H.
  - discriminate.
  - intros (tls & H & _). discriminate H.
Qed.

Lemma run_tls_some s tls :
  run_tls s = Some tls ->
  exists st acc p, tok_loop (run_fuel s) s state0 [] = inl (inl (st, acc))
    /\ tls = doc_pass None None None ((acc ++ map tl0 (flush_indents st)) ++ [tl0 (mk_lex p MEof)]).
Proof.
  unfold run_tls. destruct (tok_loop (run_fuel s) s state0 []) as [[[st acc]|?]|?]; try discriminate.
  intros H. inversion H. eauto.
Qed.

Lemma flush_dedents st : Forall (fun l => ltok l = MDedent) (flush_indents st).
Proof. apply Forall_forall. intros l Hl. apply repeat_spec in Hl. subst. reflexivity. Qed.

Theorem balanced s tls :
  aligned (run_fuel s) s state0 = true -> run_tls s = Some tls ->
  cnt is_indent (map top tls) = cnt is_dedent (map top tls).
Proof.
  intros Hal Hrun. apply run_tls_some in Hrun as (st & acc & p & Hloop & ->).
  assert (HJ0 : open_indents state0 (map top [])).
  { split; [cbn; lia|]. exists 0. repeat split; cbn; lia. }
  destruct (loop_balance _ _ _ _ _ _ HJ0 nls_ok0 Hal Hloop) as [_ (k & Hk & Hcur & Hcnt)].
  rewrite !doc_pass_cnt by reflexivity. cbn [ocnt].
  rewrite !tops_app, !tops_tl0. cbn [map top tl0]. rewrite !cnt_app, !cnt_one, mk_lex_tok.
  unfold flush_indents. rewrite !cnt_repeat, mk_lex_tok, Hcur. cbn [is_indent is_dedent].
  rewrite Z.quot_div_nonneg by lia.
  replace (1 + 4 * k) with (k * 4 + 1) by lia. rewrite Z.div_add_l by lia.
  change (1 / 4) with 0. rewrite Z.add_0_r, Z2Nat.id by lia. lia.
Qed.

Theorem single_eof s tls :
  run_tls s = Some tls -> cnt is_eof (map top tls) = 1.
Proof.
  intros Hrun. apply run_tls_some in Hrun as (st & acc & p & Hloop & ->).
  pose proof (loop_no_eof _ _ _ [] _ _ (Forall_nil _) nls_ok0 Hloop) as Hacc.
  rewrite doc_pass_cnt by reflexivity. cbn [ocnt].
  rewrite !tops_app, !tops_tl0. cbn [map top tl0]. rewrite !cnt_app, !cnt_one, mk_lex_tok.
  rewrite (cnt_zero is_eof _ Hacc). unfold flush_indents. rewrite cnt_repeat, mk_lex_tok. reflexivity.
Qed.
