(** * C16: the statements about [conv] and [gen] *)
From Coq Require Import List String Bool Arith Lia.
From MambaModel Require Import model.Core gen.Names model.Convert proofs.ConvUnfold proofs.ConvertProps
  proofs.ConvertSim proofs.ImportsProps proofs.ImportsNeeds proofs.ImportsClass proofs.ImportsConv.
Import ListNotations.
Local Open Scope string_scope.
Local Open Scope list_scope.

Definition target_covered (st : state) (i : imports) : Prop :=
  match assign_to st with
  | Some (t, name) => covers i (needs t) /\ onm_ok name = true
  | None => True
  end.

Lemma conv_covers_head a st i c j :
  reserved_free a = true -> typing_sep i -> target_covered st i -> conv a st i = Some (c, j) ->
  (forall n, In n (needs c) -> provides j n) /\ head_ok c.
Proof.
  intros Hrf Hs Ht E.
  set (L := match assign_to st with Some (t, _) => needs t | None => [] end).
  assert (Htok : tgt_ok (assign_to st) L).
  { unfold L, target_covered in *. destruct (assign_to st) as [[t nme]|]; cbn [tgt_ok]; [|exact I].
    split; [apply incl_refl | exact (proj2 Ht)]. }
  assert (Hc : covers i L).
  { unfold L, target_covered in *. destruct (assign_to st) as [[t nme]|]; [exact (proj1 Ht) | apply covers_nil]. }
  destruct (conv_covers_all a st L Hrf Htok i c j Hs Hc E) as (_ & K1 & K2). split; assumption.
Qed.

(** no converted tree is the call of a type rendered [ABC]; applied to the parents of a class in [conv_covers_all] *)
Theorem conv_head a st i c j :
  reserved_free a = true -> typing_sep i -> target_covered st i ->
  conv a st i = Some (c, j) -> head_ok c.
Proof. intros Hrf Hs Ht E. exact (proj2 (conv_covers_head a st i c j Hrf Hs Ht E)). Qed.

(** *** What [reserved_free] says ([type_name_ok_spec], [abc_ok_spec]) and two programs outside it (their failing
    conclusions: [C16_covers_refuted], [C16_covers_refuted_parent]) *)

(** a spelling the name table maps nothing else to is the rendering of itself only *)
Lemma c2p_inv s v :
  forallb (fun kv => negb (String.eqb (snd kv) v) || String.eqb (fst kv) v) py_names = true ->
  concrete_to_python s = v -> s = v.
Proof.
  intros Ht. unfold concrete_to_python. destruct (lookup s py_names) as [p|] eqn:E; [|auto]. intros ->.
  rewrite forallb_forall in Ht. revert E. generalize py_names Ht. clear Ht.
  induction l as [|[k w] l IH]; intros Ht; cbn [lookup]; [discriminate|].
  destruct (String.eqb_spec s k) as [->|_].
  - intros E. inversion E; subst. specialize (Ht _ (or_introl eq_refl)). cbn [fst snd] in Ht.
    rewrite String.eqb_refl in Ht. apply String.eqb_eq, Ht.
  - apply IH. intros kv Hkv. apply Ht. right. exact Hkv.
Qed.

Lemma type_name_ok_spec s : type_name_ok s = true <-> s <> "Optional" /\ s <> "Union".
Proof.
  split.
  - intros H. split; intros ->; vm_compute in H; discriminate H.
  - intros [H1 H2]. unfold type_name_ok.
    destruct (String.eqb_spec s n_tuple_m) as [->|Ht]; [reflexivity|].
    destruct (String.eqb_spec s n_callable_m) as [->|Hc]; [reflexivity|]. cbn [orb].
    destruct (existsb (String.eqb (concrete_to_python s)) typing_support) eqn:E; [|reflexivity].
    apply existsb_exists in E. destruct E as (v & Hv & E). apply String.eqb_eq in E.
    (* every [typing] spelling is rendered from itself only, and only [Any] is left *)
    assert (Hs : s = v) by (repeat (destruct Hv as [<-|Hv]; [apply c2p_inv; [reflexivity | exact E]|]); destruct Hv).
    rewrite E. rewrite <- Hs in *. clear E Hs. destruct Hv as [<-|[<-|[<-|[<-|[<-|[]]]]]]; [elim H1 | elim H2 | elim Ht | elim Hc |]; reflexivity.
Qed.

Lemma abc_ok_spec s : abc_ok s = true <-> s <> "ABC".
Proof.
  unfold abc_ok. split.
  - intros H ->. discriminate H.
  - intros H. apply negb_true_iff, String.eqb_neq. intros E. apply H, c2p_inv; [reflexivity | exact E].
Qed.

(** a user class literally named [Optional], called: the rendered [Optional] has no import *)
Definition user_optional : ast := A None (NCall "Optional" [] []).
(** [class X: ABC(1)]: the parent name [ABC] is emitted as an identifier, nothing imports it *)
Definition user_abc_parent : ast :=
  A None (NClass "X" [] [] [A None (NParent "ABC" [] [A None (NInt "1")])] None).

Example user_optional_not_free : reserved_free user_optional = false. Proof. reflexivity. Qed.
Example user_abc_parent_not_free : reserved_free user_abc_parent = false. Proof. reflexivity. Qed.

Theorem imports_once a st c j : conv a st imports0 = Some (c, j) -> once j.
Proof. intros E. apply wf_once. eapply conv_wf; [apply wf0 | exact E]. Qed.

Definition stmt_binds (s : core) (n : need) : Prop :=
  match n with
  | PlainImport m => s = plain_imp m
  | FromImport m x => exists ns, s = Import (Some (Id m)) ns [] /\ In (Id x) ns
  end.

Lemma provides_stmt j n : wf j -> provides j n -> exists s, In s (import_list j) /\ stmt_binds s n.
Proof.
  intros Hw. pose proof (from_imps_names_ok j Hw) as Hn. destruct n as [m|m x]; cbn [provides stmt_binds].
  - intros H. exists (plain_imp m). split; [|reflexivity]. unfold import_list. apply in_or_app. left. exact H.
  - intros (ns & al & Hin & Hx). rewrite Forall_forall in Hn. destruct (Hn _ Hin) as [_ Hal]. cbn [snd] in Hal. subst al.
    exists (Import (Some (Id m)) ns []). split; [|exists ns; split; [reflexivity | exact Hx]].
    unfold import_list. apply in_or_app. right. apply in_map_iff. exists (m, (ns, [])). split; [reflexivity | exact Hin].
Qed.

Lemma binds_unique j n s1 s2 :
  wf j -> In s1 (import_list j) -> In s2 (import_list j) -> stmt_binds s1 n -> stmt_binds s2 n -> s1 = s2.
Proof.
  intros Hw H1 H2 B1 B2. destruct n as [m|m x]; cbn [stmt_binds] in *; [congruence|].
  destruct B1 as (ns1 & -> & _), B2 as (ns2 & -> & _).
  assert (G : forall ns, In (Import (Some (Id m)) ns []) (import_list j) -> In (m, (ns, [])) (from_imps j)).
  { intros ns H. unfold import_list in H. apply in_app_or in H. destruct H as [H|H].
    - destruct Hw as [Hp _ _ _ _ _]. rewrite forallb_forall in Hp. specialize (Hp _ H). discriminate Hp.
    - apply in_map_iff in H. destruct H as [[k [n0 a0]] [E Hk]]. unfold from_import_core in E. cbn [fst snd] in E.
      inversion E; subst. exact Hk. }
  pose proof (G _ H1) as G1. pose proof (G _ H2) as G2.
  pose proof (ssorted_nodup _ (from_imps_sorted j Hw)) as Hnd.
  assert (ns1 = ns2); [|subst; reflexivity].
  clear -G1 G2 Hnd. induction (from_imps j) as [|[k v] r IH]; [contradiction|].
  cbn [map fst] in Hnd. inversion Hnd; subst.
  destruct G1 as [E1|G1], G2 as [E2|G2].
  - inversion E1; inversion E2; subst. congruence.
  - inversion E1; subst. exfalso. apply H1. apply (in_map fst) in G2. exact G2.
  - inversion E2; subst. exfalso. apply H1. apply (in_map fst) in G1. exact G1.
  - auto.
Qed.

Theorem module_layout ann a sts :
  gen ann a = Some (Block sts) ->
  exists c j, conv a (state0 ann) imports0 = Some (c, j) /\ sts = import_list j ++ stmts_of c.
Proof.
  rewrite gen_is_module. destruct (conv a (state0 ann) imports0) as [[c j]|]; [|discriminate].
  intros H. exists c, j. split; [reflexivity|]. unfold module_stmts in H.
  destruct c; destruct (imports_empty j); inversion H; reflexivity.
Qed.

Definition idn (x : option nm * string) : ast := A (fst x) (NId (snd x)).
Definition pid (x : option nm * string) : core := Id (concrete_to_python (snd x)).

Lemma conv_id t s st i :
  assign_to st = None -> last_ret st = false -> conv (A t (NId s)) st i = Some (Id (concrete_to_python s), i).
Proof. intros H1 H2. rewrite conv_result_clean by assumption. reflexivity. Qed.

Lemma mmap_ids l st i :
  assign_to st = None -> last_ret st = false ->
  mmap (fun x => conv x st) (map idn l) i = Some (map pid l, i).
Proof.
  intros H1 H2. induction l as [|x l IH]; [reflexivity|]. cbn [map mmap]. unfold bind at 1.
  unfold idn at 1. rewrite (conv_id _ _ _ _ H1 H2). unfold bind at 1. rewrite IH. reflexivity.
Qed.

Theorem user_imports_verbatim ty f im al st i :
  assign_to st = None -> last_ret st = false ->
  conv (A ty (NImport (option_map idn f) (map idn im) (map idn al))) st i
  = Some (Import (option_map pid f) (map pid im) (map pid al), i).
Proof.
  intros H1 H2. rewrite conv_result_clean by assumption. unfold conv_result. cbv beta iota zeta.
  set (s' := with_last_ret (with_assign st None) false).
  assert (A1 : assign_to s' = None) by reflexivity. assert (A2 : last_ret s' = false) by reflexivity.
  unfold bind at 1.
  assert (Hf : mopt (fun x => conv x s') (option_map idn f) i = Some (option_map pid f, i)).
  { destruct f as [x|]; [|reflexivity]. cbn [option_map mopt]. unfold bind. unfold idn.
    rewrite (conv_id _ _ _ _ A1 A2). reflexivity. }
  rewrite Hf. unfold bind at 1. rewrite (mmap_ids im s' i A1 A2).
  unfold bind at 1. rewrite (mmap_ids al s' i A1 A2). reflexivity.
Qed.

(** a record with the user's own [typing] entry (no conversion produces one): it provides a name that is lost
    at the next registration in [typing_imps], so [typing_sep] is necessary for the record to only grow *)
Definition odd_imports : imports :=
  {| imps := []; typing_imps := None; other_from := [("typing", ([Id "Any"], []))] |}.

(** ** Non-vacuity: one program using every construct that needs a support import *)
Definition t_int : nm := NM [TN false "Int" []].
Definition t_str : nm := NM [TN false "Str" []].
Definition t_float : nm := NM [TN false "Float" []].
Definition t_opt_int : nm := NM [TN true "Int" []].
Definition t_pair : nm := NM [TN false "Tuple" [t_int; NM [TN true "Str" []]]].
Definition t_fun : nm := NM [TN false "Callable" [NM [TN false "Tuple" [t_int]]; t_int]].
Definition t_any : nm := NM [TN false "Any" []].
Definition t_union : nm := NM [TN false "Int" []; TN false "Str" []].

Definition sample16 : ast :=
  A None (NBlock [
    (* type MyType: Str *)
    A None (NTypeAlias "MyType" [] t_str);
    (* type Iface \n def fun_a(self) *)
    A None (NTypeDef "Iface" [] None
              (Some (A None (NBlock [A None (NFunDef (A None (NId "fun_a"))
                                               [A None (NFunArg false (A None (NId "self")) None None)] None None)])))
              false);
    (* def f(x: Int?, p: (Int, Str?), h: (Int) -> Int, y: Any, u: Int or Str) -> Float => sqrt 4 *)
    A None (NFunDef (A None (NId "f"))
              [A None (NFunArg false (A (Some t_opt_int) (NId "x")) (Some t_opt_int) None);
               A None (NFunArg false (A (Some t_pair) (NId "p")) (Some t_pair) None);
               A None (NFunArg false (A (Some t_fun) (NId "h")) (Some t_fun) None);
               A None (NFunArg false (A (Some t_any) (NId "y")) (Some t_any) None);
               A None (NFunArg false (A (Some t_union) (NId "u")) (Some t_union) None)]
              (Some t_float)
              (Some (A (Some t_float) (NUn SSqrt (A (Some t_int) (NInt "4"))))))]).

Example sample16_reserved_free : reserved_free sample16 = true.
Proof. reflexivity. Qed.

Example sample16_gen_annotated :
  exists body,
    gen true sample16 =
    Some (Block ([Import None [Id "math"] [];
                  Import (Some (Id "abc")) [Id "ABC"; Id "abstractmethod"] [];
                  Import (Some (Id "typing"))
                    [Id "Any"; Id "Callable"; Id "NewType"; Id "Optional"; Id "Tuple"; Id "Union"] []] ++ body))
    /\ flat_map needs body =
       [FromImport "typing" "NewType"; FromImport "abc" "ABC"; FromImport "abc" "abstractmethod";
        FromImport "typing" "Optional"; FromImport "typing" "Tuple"; FromImport "typing" "Optional";
        FromImport "typing" "Callable"; FromImport "typing" "Tuple"; FromImport "typing" "Any";
        FromImport "typing" "Union"; PlainImport "math"].
Proof. eexists. split; vm_compute; reflexivity. Qed.

Example sample16_gen_plain :
  exists body,
    gen false sample16 =
    Some (Block ([Import None [Id "math"] [];
                  Import (Some (Id "abc")) [Id "ABC"; Id "abstractmethod"] [];
                  Import (Some (Id "typing")) [Id "NewType"] []] ++ body))
    /\ flat_map needs body =
       [FromImport "typing" "NewType"; FromImport "abc" "ABC"; FromImport "abc" "abstractmethod"; PlainImport "math"].
Proof. eexists. split; vm_compute; reflexivity. Qed.

(** D20 in the model: [def math := 3] followed by [sqrt 4]; the import is registered and
    provided, but the user's definition rebinds the imported name *)
Definition d20 : ast :=
  A None (NBlock [A None (NVarDef (A (Some t_int) (NId "math")) None (Some (A (Some t_int) (NInt "3"))));
                  A (Some t_float) (NUn SSqrt (A (Some t_int) (NInt "4")))]).
Example d20_capture :
  gen false d20 = Some (Block [Import None [Id "math"] [];
                               VarDef (Id "math") None (Some (Int "3"));
                               Un CuSqrt (Int "4")])
  /\ reserved_free d20 = true.
Proof. split; vm_compute; reflexivity. Qed.
