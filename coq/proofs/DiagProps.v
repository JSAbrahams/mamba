(** The diagnostic renderers of [model/Diag.v], for every position, message and source.
    The centre is [format_location_spec]: for every in-range position the machine-arithmetic renderer
    [format_location] does not panic and produces exactly [spec_location], a closed form written with
    ordinary integers and a direct lookup of "the line with that number".  Everything the property asks
    of a rendered diagnostic (header, verbatim quoted line, caret column, totality) is read off that
    closed form in props/C19.v; what is false of the code is [column_zero_panics] below and the [_refuted]
    witnesses there. *)
From Coq Require Import String Ascii List ZArith Bool Lia.
From MambaModel Require Import gen.DiagConsts model.Diag.
Import ListNotations.
Local Open Scope string_scope.
Local Open Scope Z_scope.

(** Side condition on the constants of [gen/DiagConsts.v] (discharged by computation).  The proofs need the
    indentation [OFFSET_WIDTH * 1] to stay below [alloc_cap] and the column sums below [usize_max]; 64 is a
    round bound with room above the 4 and 1 of /repo. *)

Definition consts_ok : bool :=
  (0 <=? OFFSET_WIDTH) && (OFFSET_WIDTH <=? 64)
  && (0 <=? SYNTAX_ERR_MAX_DEPTH) && (SYNTAX_ERR_MAX_DEPTH <=? 64).

Lemma consts_ok_generated : consts_ok = true.
Proof. vm_compute. reflexivity. Qed.

Lemma consts_bounds : 0 <= OFFSET_WIDTH <= 64 /\ 0 <= SYNTAX_ERR_MAX_DEPTH <= 64.
Proof.
  pose proof consts_ok_generated as H. unfold consts_ok in H.
  rewrite !andb_true_iff, !Z.leb_le in H. lia.
Qed.

Lemma app_assoc_s : forall a b c : string, (a ++ b) ++ c = a ++ (b ++ c).
Proof. induction a; intros; cbn [append]; [reflexivity | now rewrite IHa]. Qed.

Lemma app_empty_r : forall a : string, a ++ "" = a.
Proof. induction a; cbn [append]; [reflexivity | now rewrite IHa]. Qed.

Lemma length_app : forall a b : string, String.length (a ++ b) = (String.length a + String.length b)%nat.
Proof. induction a; intros; cbn [append String.length]; [reflexivity | now rewrite IHa]. Qed.

Lemma length_rep : forall c n, String.length (rep c n) = n.
Proof. induction n; cbn [rep String.length]; [reflexivity | now rewrite IHn]. Qed.

Lemma Val_inj : forall (A : Type) (a b : A), Val a = Val b -> a = b.
Proof. intros A a b H. now injection H. Qed.

Lemma as_i32_small : forall n, 0 <= n < two31 -> as_i32 n = n.
Proof.
  intros n H. unfold as_i32. rewrite Z.mod_small by (unfold two31, two32 in *; lia).
  destruct (Z.ltb_spec n two31); [reflexivity | lia].
Qed.

Lemma as_i32_usize_max : as_i32 usize_max = -1.
Proof. reflexivity. Qed.

Lemma i32_to_usize_nonneg : forall x, 0 <= x -> i32_to_usize x = x.
Proof. intros x H. unfold i32_to_usize. destruct (Z.ltb_spec x 0); [lia | reflexivity]. Qed.

Lemma i32_sub_ok : forall a b, - two31 <= a - b < two31 -> i32_sub a b = Val (a - b).
Proof.
  intros a b H. unfold i32_sub.
  destruct (Z.leb_spec (- two31) (a - b)); destruct (Z.ltb_spec (a - b) two31); cbn [andb]; try reflexivity; lia.
Qed.

Lemma usize_sub_ok : forall a b, b <= a -> usize_sub a b = Val (a - b).
Proof. intros a b H. unfold usize_sub. destruct (Z.leb_spec b a); [reflexivity | lia]. Qed.

Lemma usize_sub_pan : forall a b, a < b -> usize_sub a b = Pan.
Proof. intros a b H. unfold usize_sub. destruct (Z.leb_spec b a); [lia | reflexivity]. Qed.

Lemma usize_add_ok : forall a b, a + b <= usize_max -> usize_add a b = Val (a + b).
Proof. intros a b H. unfold usize_add. destruct (Z.leb_spec (a + b) usize_max); [reflexivity | lia]. Qed.

Lemma usize_mul_ok : forall a b, a * b <= usize_max -> usize_mul a b = Val (a * b).
Proof. intros a b H. unfold usize_mul. destruct (Z.leb_spec (a * b) usize_max); [reflexivity | lia]. Qed.

Lemma byte_vec_ok : forall c n, n <= alloc_cap -> byte_vec c n = Val (rep c (Z.to_nat n)).
Proof.
  intros c n H. unfold byte_vec.
  destruct (Z.gtb_spec n isize_max); [unfold alloc_cap, isize_max in *; lia |].
  destruct (Z.gtb_spec n alloc_cap); [lia | reflexivity].
Qed.

(** [undec] reads a decimal numeral back: [dec] writes the number the header is said to name. *)
Fixpoint undec_go (s : string) (acc : Z) : Z :=
  match s with
  | EmptyString => acc
  | String c r => undec_go r (10 * acc + (Z.of_nat (nat_of_ascii c) - 48))
  end.

Definition undec (s : string) : Z := undec_go s 0.

Lemma undec_go_app : forall a b acc, undec_go (a ++ b) acc = undec_go b (undec_go a acc).
Proof. induction a; intros; cbn [append undec_go]; [reflexivity | now rewrite IHa]. Qed.

Lemma digit_value : forall n, 0 <= n < 10 -> Z.of_nat (nat_of_ascii (digit n)) - 48 = n.
Proof.
  intros n H. unfold digit. rewrite nat_ascii_embedding by lia. lia.
Qed.

Lemma div10_bound : forall k n, 0 <= n < 10 ^ Z.of_nat (S k) -> 0 <= n / 10 < 10 ^ Z.of_nat k.
Proof.
  intros k n H. rewrite Nat2Z.inj_succ, Z.pow_succ_r in H by lia.
  split; [apply Z.div_pos; lia | apply Z.div_lt_upper_bound; lia].
Qed.

(** [dec] writes at most [k] digits for a number below [10 ^ k], and they read back as the number *)
Lemma dec_go_spec : forall fuel k n acc, (0 < k <= fuel)%nat -> 0 <= n < 10 ^ Z.of_nat k ->
  exists ds, dec_go fuel n acc = ds ++ acc /\ undec_go ds 0 = n /\ (String.length ds <= k)%nat.
Proof.
  induction fuel as [| f IH]; intros k n acc Hk Hn; [lia |].
  cbn [dec_go]. destruct (Z.ltb_spec n 10) as [Hlt | Hge].
  - exists (String (digit (n mod 10)) EmptyString). split; [reflexivity | split; [| cbn [String.length]; lia]].
    cbn [undec_go]. rewrite Z.mod_small by lia. rewrite digit_value by lia. lia.
  - destruct k as [| [| k]]; [lia | cbn in Hn; lia |].
    destruct (IH (S k) (n / 10) (String (digit (n mod 10)) acc)) as (ds & E & V & L); [lia | now apply div10_bound |].
    exists (ds ++ String (digit (n mod 10)) EmptyString). split; [| split].
    + rewrite E. now rewrite app_assoc_s.
    + rewrite undec_go_app, V. cbn [undec_go].
      rewrite digit_value by (apply Z.mod_pos_bound; lia). pose proof (Z.div_mod n 10). lia.
    + rewrite length_app. cbn [String.length]. lia.
Qed.

Lemma split_nl_length : forall s, (List.length (split_nl s) <= String.length s)%nat.
Proof.
  induction s as [| c r IH]; cbn [split_nl String.length List.length]; [lia |].
  destruct (Ascii.eqb c nl); cbn [List.length]; [lia |].
  destruct (split_nl r) as [| [l t] tl]; cbn [List.length] in *; lia.
Qed.

Lemma lines_length : forall s, (List.length (lines s) <= String.length s)%nat.
Proof. intros s. unfold lines. rewrite map_length. apply split_nl_length. Qed.

(** "the line with number [n]" (1-based), independent of any machine arithmetic *)
Definition nth_line (src : string) (n : Z) : option string :=
  if 1 <=? n then nth_error (lines src) (Z.to_nat (n - 1)) else None.

Lemma nth_z_nth_error : forall (A : Type) (l : list A) i, 0 <= i -> nth_z l i = nth_error l (Z.to_nat i).
Proof.
  intros A l i Hi. unfold nth_z. destruct (Z.ltb_spec i (Z.of_nat (List.length l))); [reflexivity |].
  symmetry. apply nth_error_None. lia.
Qed.

Lemma nth_z_beyond : forall (A : Type) (l : list A) i, Z.of_nat (List.length l) <= i -> nth_z l i = None.
Proof. intros A l i H. unfold nth_z. destruct (Z.ltb_spec i (Z.of_nat (List.length l))); [lia | reflexivity]. Qed.

Definition src_len_ok (src : string) : Prop := Z.of_nat (String.length src) <= isize_max.

Lemma nth_z_usize_max : forall src, src_len_ok src -> nth_z (lines src) usize_max = None.
Proof.
  intros src H. apply nth_z_beyond. pose proof (lines_length src). unfold src_len_ok, isize_max, usize_max in *. lia.
Qed.

(** a line or column number that passes [as i32] unchanged ([as_i32_small]); the constant is 2^31 - 2 *)
Definition small (n : Z) : Prop := 0 <= n < 2147483646.

(** The excerpt rows are looked up through [as i32]: row [n] of the excerpt is "the line numbered [n]"
    as long as [n] fits. *)
Lemma line_lookup : forall src n, -1 <= n < 2147483646 -> src_len_ok src ->
  nth_z (lines src) (i32_to_usize (Z.max (n - 1) (-1))) = nth_line src n.
Proof.
  intros src n Hn Hl. unfold nth_line. destruct (Z.leb_spec 1 n).
  - rewrite Z.max_l, i32_to_usize_nonneg by lia. now rewrite nth_z_nth_error by lia.
  - rewrite Z.max_r by lia. change (i32_to_usize (-1)) with usize_max. now apply nth_z_usize_max.
Qed.

Lemma after_lookup : forall src sl, small sl -> src_len_ok src ->
  nth_z (lines src) (Z.max sl usize_max) = None.
Proof.
  intros src sl Hs Hl. rewrite Z.max_r by (unfold small, usize_max in *; lia). now apply nth_z_usize_max.
Qed.

Lemma nth_line_some_pos : forall src n l, nth_line src n = Some l -> 1 <= n.
Proof. intros src n l. unfold nth_line. destruct (Z.leb_spec 1 n); [lia | discriminate]. Qed.

Definition spec_width (p : position) : Z := Z.max 1 (Z.abs (col (end_ p) - col (start p))).

Definition spec_row (ind : string) (n : Z) (src : string) (dflt : string) : string :=
  match nth_line src n with
  | Some l => if is_empty l then dflt else quote_row ind n l
  | None => dflt
  end.

(** No row after the line: the code looks it up at index [max line usize::MAX], which no source has
    ([after_lookup]). *)
Definition spec_excerpt (ind : string) (p : position) (source : option string) : string * string :=
  match source with
  | Some src => (spec_row ind (line (start p) - 1) src EmptyString,
                 spec_row ind (line (start p)) src (UNKNOWN ++ NL))
  | None => (EmptyString, UNKNOWN ++ NL)
  end.

Definition spec_caret_row (offset : Z) (p : position) : string :=
  GUTTER ++ rep " " (Z.to_nat (offset * OFFSET_WIDTH + col (start p) - 1))
         ++ rep "^" (Z.to_nat (spec_width p)).

Definition spec_location (offset : Z) (msg : option string) (p : position) (source : option string) : string :=
  let ind := rep " " (Z.to_nat (OFFSET_WIDTH * offset)) in
  hook_line ind msg ++ fst (spec_excerpt ind p source) ++ snd (spec_excerpt ind p source)
  ++ spec_caret_row offset p ++ NL.

(** A position the renderer can draw at indentation level [offset] (0 for the error itself, 1 for its
    first cause). *)
Definition in_range (offset : Z) (p : position) : Prop :=
  small (line (start p)) /\ small (col (start p)) /\ small (col (end_ p)) /\
  1 <= offset * OFFSET_WIDTH + col (start p) /\
  offset * OFFSET_WIDTH + col (start p) - 1 <= alloc_cap /\
  Z.abs (col (end_ p) - col (start p)) <= alloc_cap.

Definition source_ok (source : option string) : Prop :=
  match source with Some src => src_len_ok src | None => True end.

Lemma get_width_spec : forall p, small (col (start p)) -> small (col (end_ p)) ->
  get_width p = Val (spec_width p).
Proof.
  intros p Hs He. unfold get_width, spec_width, small in *.
  rewrite !as_i32_small by (unfold two31; lia).
  rewrite !i32_sub_ok by (unfold two31; lia). cbn [bind]. f_equal. f_equal.
  rewrite i32_to_usize_nonneg; lia.
Qed.

Lemma caret_row_spec : forall offset p, (offset = 0 \/ offset = 1) -> in_range offset p ->
  caret_row offset p = Val (spec_caret_row offset p).
Proof.
  intros offset p Ho (Hl & Hs & He & H1 & Hcap & Hw). pose proof consts_bounds as Hb.
  unfold caret_row, spec_caret_row, small in *.
  rewrite usize_mul_ok by (unfold usize_max; nia). cbn [bind].
  rewrite usize_add_ok by (unfold usize_max; nia). cbn [bind].
  rewrite usize_sub_ok by lia. cbn [bind].
  rewrite byte_vec_ok by lia. cbn [bind].
  rewrite get_width_spec by (unfold small; lia). cbn [bind].
  rewrite byte_vec_ok by (unfold spec_width, alloc_cap in *; lia). cbn [bind].
  reflexivity.
Qed.

Lemma source_parts_spec : forall ind p source,
  small (line (start p)) -> source_ok source ->
  source_parts ind p source = Val (fst (spec_excerpt ind p source), snd (spec_excerpt ind p source), NL).
Proof.
  intros ind p [src |] Hl Hok; [| reflexivity].
  cbn [source_ok] in Hok. unfold source_parts, spec_excerpt, spec_row. cbn [fst snd].
  set (sl := line (start p)) in *.
  assert (Hs : 0 <= sl < two31) by (unfold small, two31 in *; lia).
  rewrite (as_i32_small sl Hs), as_i32_usize_max.
  rewrite !i32_sub_ok by (unfold small, two31 in *; lia). cbn [bind].
  replace (sl - 2) with (sl - 1 - 1) by lia.
  rewrite !line_lookup, after_lookup by (try assumption; unfold small in Hl; lia). cbn [bind].
  (* the first row: absent, empty, or quoted under its number [sl - 1]; the second row is treated alike in all three *)
  destruct (nth_line src (sl - 1)) as [l0 |] eqn:E0; [apply nth_line_some_pos in E0; destruct (is_empty l0) |]; cbn [bind].
  2: rewrite usize_sub_ok by lia; cbn [bind].
  all: destruct (nth_line src sl) as [l1 |]; [destruct (is_empty l1) |]; reflexivity.
Qed.

(** At the two indentation levels in use the indentation string is computed without overflow; the
    invisible position is rendered as an empty line (after the hook line of a cause). *)
Lemma format_location_unfold : forall offset msg p source, (offset = 0 \/ offset = 1) ->
  format_location offset msg p source =
  let ind := rep " " (Z.to_nat (OFFSET_WIDTH * offset)) in
  if pos_eqb p invisible then Val (hook_line ind msg ++ NL)
  else bind (source_parts ind p source) (fun parts =>
       bind (caret_row offset p) (fun row =>
       Val (hook_line ind msg ++ fst (fst parts) ++ snd (fst parts) ++ row ++ snd parts))).
Proof.
  intros offset msg p source Ho. pose proof consts_bounds as Hb. unfold format_location.
  rewrite usize_mul_ok by (unfold usize_max; destruct Ho; subst; lia). cbn [bind].
  rewrite byte_vec_ok by (unfold alloc_cap; destruct Ho; subst; lia). reflexivity.
Qed.

Theorem format_location_spec : forall offset msg p source,
  (offset = 0 \/ offset = 1) -> pos_eqb p invisible = false ->
  in_range offset p -> source_ok source ->
  format_location offset msg p source = Val (spec_location offset msg p source).
Proof.
  intros offset msg p source Ho Hinv Hr Hok.
  rewrite format_location_unfold by assumption. cbv zeta. rewrite Hinv.
  rewrite source_parts_spec by (try assumption; apply Hr). cbn [bind].
  rewrite caret_row_spec by assumption. reflexivity.
Qed.

Definition cat_all (l : list string) : string := fold_right append EmptyString l.

Definition spec_cause_line (c : cause) : string :=
  rep " " (Z.to_nat OFFSET_WIDTH) ++ " " ++ HOOK_ARROW ++ " " ++ cmsg c ++ NL.

Definition cause_located (pos : option position) (c : cause) : bool :=
  match pos with Some p => negb (pos_eqb p (cpos c)) | None => false end.

Definition spec_cause_located (source : option string) (c : cause) : string :=
  if pos_eqb (cpos c) invisible
  then hook_line (rep " " (Z.to_nat (OFFSET_WIDTH * 1))) (Some (cmsg c)) ++ NL
  else spec_location 1 (Some (cmsg c)) (cpos c) source.

Definition spec_causes (pos : option position) (source : option string) (cs : list cause) : string :=
  match cs with
  | [] => EmptyString
  | c :: r => (if cause_located pos c then spec_cause_located source c else spec_cause_line c)
              ++ cat_all (map spec_cause_line r)
  end.

Definition spec_err (msg : string) (path : option string) (pos : option position)
  (source : option string) (cs : list cause) : string :=
  header msg path pos
  ++ match pos with
     | Some p => if pos_eqb p invisible then NL else spec_location 0 None p source
     | None => EmptyString
     end
  ++ spec_causes pos source cs.

Definition drawable (offset : Z) (p : position) : Prop :=
  pos_eqb p invisible = true \/ (pos_eqb p invisible = false /\ in_range offset p).

Definition well_positioned (pos : option position) (source : option string) (cs : list cause) : Prop :=
  source_ok source /\
  match pos with Some p => drawable 0 p | None => True end /\
  match cs with c :: _ => cause_located pos c = true -> drawable 1 (cpos c) | [] => True end.

Lemma format_location_drawable : forall offset msg p source,
  (offset = 0 \/ offset = 1) -> drawable offset p -> source_ok source ->
  format_location offset msg p source
  = Val (if pos_eqb p invisible
         then hook_line (rep " " (Z.to_nat (OFFSET_WIDTH * offset))) msg ++ NL
         else spec_location offset msg p source).
Proof.
  intros offset msg p source Ho [Hi | [Hi Hr]] Hok; rewrite Hi.
  - rewrite format_location_unfold by assumption. cbv zeta. now rewrite Hi.
  - now apply format_location_spec.
Qed.

Lemma cause_line_val : forall c,
  bind (byte_vec " " OFFSET_WIDTH) (fun o => Val (o ++ " " ++ HOOK_ARROW ++ " " ++ cmsg c ++ NL))
  = Val (spec_cause_line c).
Proof.
  intros c. pose proof consts_bounds. rewrite byte_vec_ok by (unfold alloc_cap; lia). reflexivity.
Qed.

Lemma format_causes_rest : forall pos source r,
  format_causes false pos source r = Val (cat_all (map spec_cause_line r)).
Proof.
  induction r as [| c r IH]; [reflexivity |].
  cbn [format_causes andb]. rewrite cause_line_val. cbn [bind]. rewrite IH. reflexivity.
Qed.

Theorem format_err_spec : forall msg path pos source cs,
  well_positioned pos source cs ->
  format_err msg path pos source cs = Val (spec_err msg path pos source cs).
Proof.
  intros msg path pos source cs (Hok & Hp & Hc). unfold format_err, spec_err.
  assert (Htail : format_causes true pos source cs = Val (spec_causes pos source cs)).
  { destruct cs as [| c r]; [reflexivity |]. cbn [format_causes spec_causes andb].
    fold (cause_located pos c). destruct (cause_located pos c) eqn:E.
    - rewrite (format_location_drawable 1 (Some (cmsg c)) (cpos c) source) by (auto; lia). cbn [bind].
      rewrite format_causes_rest. cbn [bind]. unfold spec_cause_located.
      destruct (pos_eqb (cpos c) invisible); reflexivity.
    - rewrite cause_line_val. cbn [bind]. rewrite format_causes_rest. reflexivity. }
  rewrite Htail. destruct pos as [p |]; cbn [bind]; [| reflexivity].
  rewrite (format_location_drawable 0 None p source) by (auto; lia). cbn [bind hook_line].
  destruct (pos_eqb p invisible); now rewrite app_assoc_s.
Qed.

(** ParseErr shows the first [min (len - 1) SYNTAX_ERR_MAX_DEPTH] causes: with the generated depth 1, no
    cause unless there are at least two, and then only the first. *)
Definition spec_parse_causes (cs : list cause) : list cause :=
  firstn (Nat.min (List.length cs - 1) (Z.to_nat SYNTAX_ERR_MAX_DEPTH)) cs.

Lemma parse_shown_causes_spec : forall cs, Z.of_nat (List.length cs) < two31 ->
  parse_shown_causes cs = Val (spec_parse_causes cs).
Proof.
  intros cs Hlen. pose proof consts_bounds as Hd. unfold parse_shown_causes, spec_parse_causes.
  rewrite as_i32_small by lia.
  rewrite i32_sub_ok by (unfold two31 in *; lia). cbn [bind].
  set (n := List.length cs) in *.
  rewrite i32_to_usize_nonneg by lia.
  destruct (Z.leb_spec (Z.min (Z.max (Z.of_nat n - 1) 0) SYNTAX_ERR_MAX_DEPTH) (Z.of_nat n)); [| lia].
  f_equal. f_equal. lia.
Qed.

Theorem render_total :
  (forall e, well_positioned (te_pos e) (te_source e) (te_causes e) ->
             exists text, render_type e = Rendered text)
  /\ (forall e, Z.of_nat (List.length (pe_causes e)) < two31 ->
                well_positioned (Some (pe_pos e)) (pe_source e) (spec_parse_causes (pe_causes e)) ->
                exists text, render_parse e = Rendered text)
  /\ (forall e, well_positioned (Some (ge_pos e)) (ge_source e) [] ->
                exists text, render_gen e = Rendered text).
Proof.
  split; [| split]; intros e.
  - intros H. eexists. unfold render_type. now rewrite format_err_spec.
  - intros Hl H. eexists. unfold render_parse. rewrite parse_shown_causes_spec by assumption. cbn [bind].
    now rewrite format_err_spec.
  - intros H. eexists. unfold render_gen. now rewrite format_err_spec.
Qed.

Theorem header_without_position : forall msg path source cs s,
  format_err msg path None source cs = Val s ->
  exists rest, s = msg ++ NL ++ " " ++ RIGHT_ARROW ++ " " ++ path_text path ++ NL ++ rest.
Proof.
  intros msg path source cs s H. unfold format_err in H. cbn [bind] in H.
  destruct (format_causes true None source cs) as [tail | |]; cbn [bind] in H; try discriminate.
  apply Val_inj in H. subst s. exists tail. unfold header. repeat rewrite app_assoc_s. reflexivity.
Qed.

(** Caret column: the quoted text starts [ind + 7] bytes into its row when the line number has at most
    four digits, and the first caret stands [ind + 7 + col - 1] bytes into the caret row: under byte
    [col] of the quoted line. *)
Definition row_prefix (ind : nat) (n : Z) : string := rep " " ind ++ pad_left 4 (dec n) ++ SEP.
Definition caret_prefix (ind : nat) (c : Z) : string := GUTTER ++ rep " " (ind + Z.to_nat (c - 1)).

Lemma dec_len_4 : forall n, 0 <= n < 10000 -> (String.length (dec n) <= 4)%nat.
Proof.
  intros n H. unfold dec. destruct (dec_go_spec 20 4 n EmptyString) as (ds & E & _ & L); [lia | exact H |].
  now rewrite E, app_empty_r.
Qed.

Lemma length_pad_left : forall w s, (String.length s <= w)%nat -> String.length (pad_left w s) = w.
Proof. intros w s H. unfold pad_left. rewrite length_app, length_rep. lia. Qed.

Lemma spec_caret_row_prefix : forall offset p, (offset = 0 \/ offset = 1) -> 1 <= col (start p) ->
  spec_caret_row offset p
  = caret_prefix (Z.to_nat (OFFSET_WIDTH * offset)) (col (start p)) ++ rep "^" (Z.to_nat (spec_width p)).
Proof.
  intros offset p Ho Hc. pose proof consts_bounds. unfold spec_caret_row, caret_prefix.
  rewrite app_assoc_s. repeat f_equal. destruct Ho; subst; lia.
Qed.

Lemma spec_width_pos : forall p, 1 <= spec_width p.
Proof. intros p. unfold spec_width. lia. Qed.

Lemma res_bind_not_big_sub : forall (A : Type) (a b : Z) (f : Z -> res A),
  (forall x, f x <> Big) -> bind (usize_sub a b) f <> Big.
Proof. intros A a b f H. unfold usize_sub. destruct (b <=? a); cbn [bind]; [apply H | discriminate]. Qed.

(** A visible position whose start column is 0 makes the renderer panic (usize underflow in
    [offset * OFFSET_WIDTH + pos.start.pos - 1]) whatever the source. *)
Theorem column_zero_panics : forall msg p source,
  pos_eqb p invisible = false -> col (start p) = 0 -> small (line (start p)) -> source_ok source ->
  format_location 0 msg p source = Pan.
Proof.
  intros msg p source Hi Hc Hl Hok. pose proof consts_bounds as Hb.
  rewrite format_location_unfold by now left. cbv zeta. rewrite Hi.
  rewrite source_parts_spec by assumption. cbn [bind].
  unfold caret_row. rewrite usize_mul_ok by (unfold usize_max; lia). cbn [bind].
  rewrite Hc. rewrite usize_add_ok by (unfold usize_max; lia). cbn [bind].
  rewrite usize_sub_pan by lia. reflexivity.
Qed.

Lemma union_invisible_visible : forall q,
  0 <= line (end_ q) -> 0 <= col (end_ q) -> (0 < line (end_ q) \/ 0 < col (end_ q)) ->
  pos_eqb (union invisible q) invisible = false.
Proof.
  intros [[a b] [c d]] H1 H2 H3. unfold pos_eqb, caret_eqb, union, invisible. cbn [start end_ line col] in *.
  rewrite !Z.max_r by lia.
  destruct (Z.eqb_spec c 0); destruct (Z.eqb_spec d 0); try lia; rewrite ?andb_false_r; reflexivity.
Qed.

(** LexErr's own Display (never called by the pipeline, which converts LexErr into ParseErr) *)

Definition spec_lex (e : lex_err) : string :=
  "--> " ++ match le_path e with Some p => p | None => UNKNOWN end ++ ":"
  ++ dec (line (le_pos e)) ++ ":" ++ dec (col (le_pos e)) ++ NL
  ++ "     | " ++ le_msg e ++ NL
  ++ pad_left 3 (dec (line (le_pos e))) ++ "  |- "
  ++ match le_source e with
     | Some src => match nth_line src (line (le_pos e)) with Some l => l | None => UNKNOWN end
     | None => UNKNOWN
     end ++ NL
  ++ "     | " ++ rep " " (Z.to_nat (col (le_pos e)))
  ++ rep "^" (Z.to_nat (match le_width e with Some w => w | None => 1 end)).

Lemma lex_source_line_spec : forall e, 0 <= line (le_pos e) ->
  lex_source_line e
  = Val match le_source e with
        | Some src => match nth_line src (line (le_pos e)) with Some l => l | None => UNKNOWN end
        | None => UNKNOWN
        end.
Proof.
  intros e Hl. unfold lex_source_line, nth_line. destruct (le_source e) as [src |]; [| reflexivity].
  destruct (Z.gtb_spec (line (le_pos e)) 0); destruct (Z.leb_spec 1 (line (le_pos e))); try lia; [| reflexivity].
  rewrite usize_sub_ok by lia. cbn [bind]. now rewrite nth_z_nth_error by lia.
Qed.

Fixpoint no_nl (s : string) : bool :=
  match s with
  | EmptyString => true
  | String c r => negb (Ascii.eqb c nl) && no_nl r
  end.

Lemma split_nl_cons : forall l rest, no_nl l = true ->
  split_nl (l ++ String nl rest) = (l, true) :: split_nl rest.
Proof.
  induction l as [| c r IH]; intros rest H; cbn [append split_nl].
  - now rewrite Ascii.eqb_refl.
  - cbn [no_nl] in H. apply andb_prop in H. destruct H as [Hc Hr].
    destruct (Ascii.eqb c nl); [discriminate |]. now rewrite IH.
Qed.

Lemma split_nl_last : forall l, no_nl l = true -> l <> EmptyString -> split_nl l = [(l, false)].
Proof.
  induction l as [| c r IH]; intros H Hne; [contradiction |].
  cbn [no_nl] in H. apply andb_prop in H. destruct H as [Hc Hr]. cbn [split_nl].
  destruct (Ascii.eqb c nl); [discriminate |].
  destruct r as [| c2 r2]; [reflexivity |]. rewrite IH by (auto; discriminate). reflexivity.
Qed.

(** Non-vacuity: the hypotheses of the theorems are satisfiable by an ordinary diagnostic *)

Definition example_err : type_err :=
  TypeErr (Some (Position (Caret 2 7) (Caret 2 9))) "Undefined variable: zz" (Some "src/prog.mamba")
          (Some ("def a := 1" ++ NL ++ "print(zz)" ++ NL))
          [Cause (Position (Caret 1 1) (Caret 1 4)) "in this definition"].

Example example_well_positioned :
  well_positioned (te_pos example_err) (te_source example_err) (te_causes example_err).
Proof.
  pose proof consts_bounds. unfold well_positioned, example_err, drawable, in_range, small, alloc_cap.
  cbn [te_pos te_source te_causes source_ok cause_located cpos start end_ line col].
  split; [unfold src_len_ok, isize_max; cbn; lia |].
  split; [right; split; [reflexivity | lia] |].
  intros _. right. split; [reflexivity | lia].
Qed.

Example example_rendering :
  render_type example_err
  = Rendered ("Undefined variable: zz" ++ NL ++ " " ++ RIGHT_ARROW ++ " src/prog.mamba:2:7" ++ NL
              ++ "   1 | def a := 1" ++ NL
              ++ "   2 | print(zz)" ++ NL
              ++ "             ^^" ++ NL
              ++ "     " ++ HOOK_ARROW ++ " in this definition" ++ NL
              ++ "       1 | def a := 1" ++ NL
              ++ "           ^^^" ++ NL).
Proof. vm_compute. reflexivity. Qed.

Example example_quoted :
  nth_line ("def a := 1" ++ NL ++ "print(zz)" ++ NL) 2 = Some "print(zz)".
Proof. reflexivity. Qed.

Example example_in_range :
  in_range 0 (Position (Caret 2 7) (Caret 2 9))
  /\ nth_line ("def a := 1" ++ NL ++ "print(zz)" ++ NL) 2 = Some "print(zz)".
Proof.
  split; [| reflexivity]. pose proof consts_bounds.
  unfold in_range, small, alloc_cap. cbn [start end_ line col]. lia.
Qed.
