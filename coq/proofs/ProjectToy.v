(** A small concrete [world] for the examples (the hypotheses of C13 are satisfiable) and for the witnesses of
    its refuted strengthenings.

    Toy source language: a text is a sequence of 3-character statements
      [cNd] class N with data d        [fNs] function N with signature s     [dNt] field N with type t
      [uN_] use class N (emits its data)   [gN_] call function N (emits its signature)
      [eN_] read field N               [nN_] construct N (constructor look-up by full name)
      [?__] a declaration the context builder rejects       [x__] something the generator rejects
    anything else is a syntax error. *)
From Coq Require Import List String Ascii Bool Arith Lia Permutation.
Import ListNotations.
From MambaModel Require Import model.Project proofs.ProjectFs proofs.ProjectProps.
Local Open Scope string_scope.
Local Open Scope list_scope.

Inductive stmt :=
| SClass (n d : string) | SFun (n s : ascii) | SField (n t : string)
| SUseC (n : string) | SUseF (n : string) | SUseD (n : string) | SNew (n : string)
| SBadDecl | SUnimpl.

Definition s1 (c : ascii) : string := String c EmptyString.

Definition stmt_of (a b c : ascii) : option stmt :=
  if Ascii.eqb a "c" then Some (SClass (s1 b) (s1 c))
  else if Ascii.eqb a "f" then Some (SFun b c)
  else if Ascii.eqb a "d" then Some (SField (s1 b) (s1 c))
  else if Ascii.eqb a "u" then Some (SUseC (s1 b))
  else if Ascii.eqb a "g" then Some (SUseF (s1 b))
  else if Ascii.eqb a "e" then Some (SUseD (s1 b))
  else if Ascii.eqb a "n" then Some (SNew (s1 b))
  else if Ascii.eqb a "?" then Some SBadDecl
  else if Ascii.eqb a "x" then Some SUnimpl
  else None.

Fixpoint tparse (s : string) : res (list stmt) string :=
  match s with
  | EmptyString => Ok []
  | String a (String b (String c r)) =>
      match stmt_of a b c with
      | Some st => match tparse r with Ok l => Ok (st :: l) | Err m => Err m end
      | None => Err "syntax error"
      end
  | _ => Err "syntax error"
  end.

Definition pairE := (string * string)%type.
Definition funE := (ascii * ascii)%type.      (* name and signature: one character each *)
Definition tdecls := decls pairE pairE funE.
Definition tlk := lookups pairE pairE funE.

Definition tdecls_of (a : list stmt) : res tdecls (list string) :=
  if existsb (fun st => match st with SBadDecl => true | _ => false end) a then Err ["bad declaration"]
  else Ok {| d_classes := flat_map (fun st => match st with SClass n d => [(n, d)] | _ => [] end) a;
             d_fields := flat_map (fun st => match st with SField n t => [(n, t)] | _ => [] end) a;
             d_funs := flat_map (fun st => match st with SFun n s => [(n, s)] | _ => [] end) a |}.

Definition need {A : Type} (what n : string) (o : option A) : list string :=
  match o with Some _ => [] | None => [(what ++ " " ++ n ++ " is undefined")%string] end.

Definition cerr (lk : tlk) (st : stmt) : list string :=
  match st with
  | SUseC n => need "class" n (lk_class lk n)
  | SUseF n => need "function" n (lk_fun lk n)
  | SUseD n => need "field" n (lk_field lk n)
  | SNew n => need "constructor" n (lk_ctor lk n)
  | _ => []
  end.

Definition tcheck (lk : tlk) (a : list stmt) : res (list stmt) (list string) :=
  match flat_map (cerr lk) a with
  | [] => Ok a
  | e :: es => Err (e :: es)
  end.

Definition data {A : Type} (o : option (A * string)) : string :=
  match o with Some (_, d) => d | None => "?" end.
Definition fdata (o : option funE) : string :=
  match o with Some (_, d) => s1 d | None => "?" end.

Definition gpiece (ann : bool) (lk : tlk) (st : stmt) : string :=
  match st with
  | SClass n d => ("C" ++ n)%string
  | SFun n s => ("F" ++ s1 n)%string
  | SField n t => if ann then ("D" ++ n ++ ":" ++ t)%string else ("D" ++ n)%string
  | SUseC n => data (lk_class lk n)
  | SUseF n => fdata (lk_fun lk n)
  | SUseD n => data (lk_field lk n)
  | SNew n => data (lk_ctor lk n)
  | _ => ""
  end.

Definition tgen (ann : bool) (lk : tlk) (t : list stmt) : res string string :=
  if existsb (fun st => match st with SUnimpl => true | _ => false end) t then Err "unimplemented"
  else Ok (String.concat "" (map (gpiece ann lk) t)).

Definition srefs (st : stmt) : list string :=
  match st with SUseC n | SUseF n | SUseD n | SNew n => [n] | _ => [] end.
Definition trefs (a : list stmt) : list string := flat_map srefs a.

Definition toy : world :=
  {| w_msg := string; w_centry := pairE; w_dentry := pairE; w_fentry := funE;
     w_c_key := fst; w_c_base := fst;
     w_f_key := fun f => String (fst f) (s1 (snd f)); w_f_name := fun f => s1 (fst f);
     w_d_name := fst;
     w_any := ("Any", "any");
     w_prim_c := [("Int", "int")]; w_std_c := [("Range", "range")];
     w_prim_d := []; w_std_d := [];
     w_prim_f := [("p"%char, "q"%char)]; w_std_f := [];
     w_ast := list stmt; w_tast := list stmt;
     w_parse := tparse; w_decls_of := tdecls_of; w_check := tcheck; w_gen := tgen |}.

Definition ord_id : enumeration := fun _ l => l.
Definition ord_rev : enumeration := fun _ l => rev l.

Lemma ord_id_ok : ord_ok ord_id.
Proof. intros A l. apply Permutation_refl. Qed.
Lemma ord_rev_ok : ord_ok ord_rev.
Proof. intros A l. apply Permutation_sym, Permutation_rev. Qed.

Lemma toy_compat : key_compat toy.
Proof.
  split; cbn.
  - intros x y H. exact H.
  - intros [a b] [c d] H. cbn in *. now injection H as -> _.
Qed.

Lemma toy_stmt_local : forall (K : string -> Prop) lk lk' st,
  (forall k, In k (srefs st) -> K k) -> lk_eq_on toy K lk lk' ->
  cerr lk st = cerr lk' st /\ (forall ann, gpiece ann lk st = gpiece ann lk' st).
Proof.
  intros K lk lk' st HK E. destruct st; cbn [cerr gpiece]; try (split; reflexivity);
    (destruct (E n) as (E1 & E2 & E3 & E4); [apply HK; now left|]);
    cbn [toy w_centry w_dentry w_fentry] in E1, E2, E3, E4;
    (split; [|intro ann]); first [now rewrite E1 | now rewrite E2 | now rewrite E3 | now rewrite E4].
Qed.

Lemma toy_local_on : forall (K : string -> Prop) lk lk' a,
  (forall k, In k (trefs a) -> K k) -> lk_eq_on toy K lk lk' ->
  tcheck lk a = tcheck lk' a /\ (forall ann, tgen ann lk a = tgen ann lk' a).
Proof.
  intros K lk lk' a HK E.
  assert (S : forall st, In st a -> cerr lk st = cerr lk' st /\ forall ann, gpiece ann lk st = gpiece ann lk' st).
  { intros st I. apply (toy_stmt_local K); [|assumption]. intros k Hk. apply HK, in_flat_map. now exists st. }
  split.
  - unfold tcheck. now rewrite !flat_map_concat_map, (map_ext_in _ _ _ (fun st I => proj1 (S st I))).
  - intro ann. unfold tgen. now rewrite (map_ext_in _ _ _ (fun st I => proj2 (S st I) ann)).
Qed.

Lemma tcheck_same : forall lk a t, tcheck lk a = Ok t -> t = a.
Proof. intros lk a t H. unfold tcheck in H. destruct (flat_map _ a); [now injection H | discriminate]. Qed.

Lemma toy_extensional : stages_extensional toy.
Proof.
  intros lk lk' E. split.
  - intro a. apply (toy_local_on (fun _ => True)); auto.
  - intros ann t. apply (toy_local_on (fun _ => True)); auto.
Qed.

Lemma toy_local : stages_local toy trefs.
Proof.
  intros lk lk' a E. destruct (toy_local_on (fun k => In k (trefs a)) lk lk' a (fun k H => H) E) as [H1 H2].
  split; [exact H1|]. intros ann t C. cbn in C. apply tcheck_same in C. subst t. apply H2.
Qed.

(** A project with cross-file use: file a defines class F and function h, file sub/b uses both.
    The target already holds a stale file. *)
Definition fs0 : FS :=
  [ (["src"], Dir); (["src"; "a.mamba"], File "cFxfhi"); (["src"; "sub"], Dir);
    (["src"; "sub"; "b.mamba"], File "uF_gh_nF_");
    (["target"], Dir); (["target"; "old.py"], File "stale") ].

Definition fs0_after : FS :=
  [ (["src"], Dir); (["src"; "a.mamba"], File "cFxfhi"); (["src"; "sub"], Dir);
    (["src"; "sub"; "b.mamba"], File "uF_gh_nF_");
    (["target"], Dir); (["target"; "old.py"], File "stale");
    (["target"; "a.py"], File "CFFh"); (["target"; "sub"], Dir); (["target"; "sub"; "b.py"], File "xix") ].

Example toy_run : tdir toy ord_id fs0 [] None None false = (fs0_after, Ok ["target"]).
Proof. vm_compute. reflexivity. Qed.

Example toy_rerun : tdir toy ord_id fs0_after [] None None false = (fs0_after, Ok ["target"]).
Proof. vm_compute. reflexivity. Qed.

(** one faulty file (type error in c.mamba): an error naming that file, nothing written *)
Example toy_faulty :
  tdir toy ord_id (fs_set fs0 ["src"; "c.mamba"] (File "uZ_")) [] None None false =
  (fs_set fs0 ["src"; "c.mamba"] (File "uZ_"),
   Err [EStage SCheck (Some ["src"; "c.mamba"]) "class Z is undefined"]).
Proof. vm_compute. reflexivity. Qed.

Definition source0 : list input :=
  [("cFxfhi", Some ["src"; "a.mamba"]); ("uF_gh_nF_", Some ["src"; "sub"; "b.mamba"])].

Example toy_uniq : uniq_names toy (asts_of toy source0).
Proof.
  unfold uniq_names, uniq_on. repeat split; intros x y Hx Hy E; vm_compute in Hx, Hy;
    repeat (destruct Hx as [Hx|Hx]); try contradiction; repeat (destruct Hy as [Hy|Hy]); try contradiction;
    subst; try reflexivity; vm_compute in E; discriminate.
Qed.

(** the hypotheses of [order_independent] and of [fresh_file_inert] ([stages_local] in place of
    [stages_extensional]) are satisfiable together, on a project with cross-file use *)
Example toy_hypotheses :
  key_compat toy /\ stages_extensional toy /\ stages_local toy trefs /\ ord_ok ord_id /\ ord_ok ord_rev /\
  uniq_names toy (asts_of toy source0) /\
  m2p toy ord_id false source0 ["src"] = Ok ["CFFh"; "xix"] /\
  m2p toy ord_rev false (rev source0) ["src"] = Ok ["xix"; "CFFh"].
Proof.
  split; [apply toy_compat|]. split; [apply toy_extensional|]. split; [apply toy_local|].
  split; [apply ord_id_ok|]. split; [apply ord_rev_ok|]. split; [apply toy_uniq|].
  split; vm_compute; reflexivity.
Qed.

(** since 2d1bc77 an error raised while the context is built names the file whose declarations are
    rejected (here b.mamba) *)
Example ctx_error_attributed :
  m2p toy ord_id false [("cFx", Some ["src"; "a.mamba"]); ("?__", Some ["src"; "b.mamba"]); ("uF_", Some ["src"; "u.mamba"])] ["src"]
  = Err [EStage SCtx (Some ["src"; "b.mamba"]) "bad declaration"].
Proof. vm_compute. reflexivity. Qed.

(** the tree of [C13_error_implies_nothing_written_refuted]: x.mamba and x.py/y.mamba, where the second
    write needs a directory at the place the first put a file *)
Definition fs_conflict : FS :=
  [ (["src"], Dir); (["src"; "x.mamba"], File "cAx"); (["src"; "x.py"], Dir);
    (["src"; "x.py"; "y.mamba"], File "cBy") ].

(** a directory named like a source is skipped (c8709a7) *)
Example dir_named_mamba_skipped :
  tdir toy ord_id [ (["src"], Dir); (["src"; "x.mamba"], File "cAx"); (["src"; "d.mamba"], Dir) ] [] None None false =
  ([ (["src"], Dir); (["src"; "x.mamba"], File "cAx"); (["src"; "d.mamba"], Dir); (["target"], Dir);
     (["target"; "x.py"], File "CA") ], Ok ["target"]).
Proof. vm_compute. reflexivity. Qed.

(** the tree of [C13_one_output_per_source_refuted]: [.mamba] and [.mamba.mamba] are two sources with ONE
    output path *)
Definition fs_dot : FS :=
  [ (["src"], Dir); (["src"; ".mamba"], File "cAx"); (["src"; ".mamba.mamba"], File "cBy") ].

