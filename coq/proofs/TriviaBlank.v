(** * A blank or whitespace-only line (used by C14)

    Inserting a line that holds only blanks after a line break point [pre | R] makes the lexer
    keep one more pending NL token.  It is handed out with the next token, directly before the
    older pending NL tokens - i.e. after the NL of the line and after the Indent/Dedent tokens -
    and every later token moves down one line.  If no token follows, nothing changes
    (pending NL tokens are dropped at the end of input). *)
From Coq Require Import List Ascii ZArith Bool Lia Arith.
From MambaModel Require Import model.LexTok gen.LexTables model.Lex proofs.LexProps model.Trivia
  proofs.TriviaFuel proofs.TriviaScan proofs.TriviaSim proofs.TriviaShift proofs.TriviaProps.
Import ListNotations.
Local Open Scope Z_scope.

Definition set_nl (st : state) (n : list lex) : state :=
  {| newlines := n; cur_indent := cur_indent st; line_indent := line_indent st;
     token_this_line := token_this_line st; pos := pos st |}.

Definition ends_nl_indent (P : list lex) : Prop :=
  exists P0 z, P = P0 ++ [z] /\ (ltok z = MNL \/ ltok z = MIndent).

Lemma emit_layout_extra b x rest :
  newlines b = x :: rest -> rest <> [] -> Forall (fun l => ltok l = MNL) rest ->
  exists P Q, emit_layout (set_nl b rest) = P ++ Q /\ emit_layout b = P ++ x :: Q
              /\ P <> [] /\ Forall (fun l => synthetic (ltok l) = true) P /\ ends_nl_indent P.
Proof.
  intros Hn Hne Hall. destruct (rev_nonempty rest Hne) as (l0 & r & Hr).
  unfold emit_layout, set_nl. cbn [newlines cur_indent line_indent pos]. rewrite Hn. cbn [rev]. rewrite Hr.
  cbn [app]. rewrite rev_app_distr. cbn [rev app].
  set (layout := if cur_indent b <=? line_indent b then _ else _).
  exists ([l0] ++ layout), (rev r). split; [rewrite <- app_assoc; reflexivity|].
  split; [rewrite <- app_assoc; reflexivity|]. split; [discriminate|].
  assert (Hl0 : ltok l0 = MNL).
  { apply Forall_rev in Hall. rewrite Hr in Hall. inversion Hall; subst. assumption. }
  split.
  - apply Forall_app. split.
    + constructor; [|constructor]. rewrite Hl0. reflexivity.
    + subst layout. destruct (cur_indent b <=? line_indent b).
      * apply Forall_forall. intros l Hl. apply repeat_spec in Hl. subst. reflexivity.
      * apply Forall_app. split.
        -- apply Forall_forall. intros l Hl. apply repeat_spec in Hl. subst. reflexivity.
        -- constructor; [reflexivity | constructor].
  - subst layout. unfold ends_nl_indent. destruct (cur_indent b <=? line_indent b).
    + destruct (Z.to_nat ((line_indent b - cur_indent b) ÷ 4)) as [|m].
      * exists [], l0. split; [reflexivity | left; exact Hl0].
      * exists ([l0] ++ repeat (mk_lex (pos b) MIndent) m), (mk_lex (pos b) MIndent).
        split; [|right; reflexivity]. rewrite <- app_assoc. f_equal. apply repeat_cons.
    + exists ([l0] ++ repeat (mk_lex (pos b) MDedent) (Z.to_nat ((cur_indent b - line_indent b) ÷ 4))),
             (mk_lex (pos b) MNL).
      split; [rewrite <- app_assoc; reflexivity | left; reflexivity].
Qed.

Definition step_extra_rel (x : lex) (s1 s2 : stepres) : Prop :=
  match s1, s2 with
  | Halt e1, Halt e2 => e1 = e2
  | OOF, OOF => True
  | Next r1 b1 o1, Next r2 b2 o2 =>
      r1 = r2 /\
      ((o1 = [] /\ o2 = [] /\ exists rest', newlines b2 = x :: rest' /\ b1 = set_nl b2 rest' /\ rest' <> []
                                           /\ Forall (fun l => ltok l = MNL) rest')
       \/ (b1 = b2 /\ exists P Q, P <> [] /\ Forall (fun l => synthetic (ltok l) = true) P
                                  /\ ends_nl_indent P
                                  /\ o1 = map tl0 P ++ Q /\ o2 = map tl0 P ++ tl0 x :: Q))
  | _, _ => False
  end.

Lemma emit_extra b x rest t inn rest0 :
  newlines b = x :: rest -> rest <> [] -> Forall (fun l => ltok l = MNL) rest ->
  step_extra_rel x (emit (set_nl b rest) t inn rest0) (emit b t inn rest0).
Proof.
  intros Hn Hne Hall. split; [reflexivity|]. right. split; [reflexivity|].
  destruct (emit_layout_extra b x rest Hn Hne Hall) as (P & Q & E1 & E2 & HP & HS & HE).
  exists P, (map tl0 Q ++ [{| top := mk_lex (pos b) t; inner := inn |}]).
  split; [exact HP|]. split; [exact HS|]. split; [exact HE|]. rewrite E1, E2. cbn [set_nl pos].
  rewrite !map_app. cbn [map]. rewrite <- !app_assoc. split; reflexivity.
Qed.

Lemma step_extra f c r b x rest :
  newlines b = x :: rest -> rest <> [] -> Forall (fun l => ltok l = MNL) rest ->
  step_extra_rel x (step f c r (set_nl b rest)) (step f c r b).
Proof.
  intros Hn Hne Hall. unfold step.
  destruct (scan c r) as [t rest0 | content exprs rest0 | rest0 | e].
  - destruct (is_nl t); [|apply emit_extra; assumption].
    split; [reflexivity|]. left. split; [reflexivity|]. split; [reflexivity|].
    exists (rest ++ [mk_lex (pos b) MNL]). split; [unfold state_newline; cbn; rewrite Hn; reflexivity|].
    split; [reflexivity|]. split.
    + intros F. apply app_eq_nil in F as [_ F]. discriminate F.
    + apply Forall_app. split; [exact Hall | constructor; [reflexivity | constructor]].
  - cbn [set_nl pos]. destruct (nest_all f (pos b) exprs) as [[inn|]|err];
      [apply emit_extra; assumption | exact I | reflexivity].
  - split; [reflexivity|]. left. split; [reflexivity|]. split; [reflexivity|].
    exists rest. split; [unfold state_space; cbn; exact Hn|]. split; [reflexivity|]. split; assumption.
  - reflexivity.
Qed.

Definition extra_nl (a b : state) : Prop :=
  exists x rest, newlines b = x :: rest /\ nl_like x /\ rest <> []
                 /\ Forall (fun l => ltok l = MNL) rest /\ st_sh 1 a (set_nl b rest).

Definition nl_inserted (l1 l2 : list tl) : Prop :=
  exists u v u' x v',
    l1 = u ++ v /\ l2 = u' ++ x :: v' /\ ltok (top x) = MNL /\ inner x = []
    /\ (exists u0 z, u' = u0 ++ [z] /\ (ltok (top z) = MNL \/ ltok (top z) = MIndent) /\ inner z = [])
    /\ Forall2 tl_eqv u u' /\ Forall2 (tl_sh 1) v v'.

Lemma sh_synth_eqv d y y' :
  tl_sh d y y' -> synthetic (ltok (top y')) = true -> inner y' = [] -> tl_eqv y y'.
Proof.
  intros [(H1 & H2 & _) Hin] Hs Hi. split.
  - split; [exact H1|]. split; [exact H2|]. rewrite H1, Hs. discriminate.
  - rewrite Hi in Hin. inversion Hin. rewrite Hi. reflexivity.
Qed.

Lemma sh_synth_eqvs d u P :
  Forall2 (tl_sh d) u (map tl0 P) -> Forall (fun l => synthetic (ltok l) = true) P ->
  Forall2 tl_eqv u (map tl0 P).
Proof.
  revert u. induction P as [|l P IH]; intros u Hu Hs; inversion Hu; subst; [constructor|].
  inversion Hs; subst. constructor; [apply (sh_synth_eqv d); [assumption.. | reflexivity] | apply IH; assumption].
Qed.

Definition extra_nl_res (x y : lres) : Prop :=
  match x, y with
  | inl (inl (a, oa)), inl (inl (b, ob)) =>
      same_indent a b /\ ((oa = [] /\ ob = []) \/ nl_inserted oa ob)
  | inl (inr _), inl (inr _) => True
  | inr _, inr _ => True
  | _, _ => False
  end.

Lemma extra_nl_loop fuel : forall s a b,
  extra_nl a b -> extra_nl_res (tok_loop fuel s a []) (tok_loop fuel s b []).
Proof.
  induction fuel as [|fuel IH]; intros s a b H.
  - rewrite !tok_loop_O. exact I.
  - destruct H as (x & rest & Hn & Hx & Hne & Hall & Hsh).
    destruct s as [|c r].
    + rewrite !tok_loop_nil. cbn. split; [|left; split; reflexivity].
      apply (st_sh_same_indent 1 a (set_nl b rest) Hsh).
    + rewrite !tok_loop_step.
      pose proof (step_sim 1 _ (inner_ok_k 1) (direct fuel) c r a (set_nl b rest) Hsh) as H1.
      pose proof (step_extra (direct fuel) c r b x rest Hn Hne Hall) as H2.
      destruct (step (direct fuel) c r a) as [e1| |r1 a1 o1],
               (step (direct fuel) c r (set_nl b rest)) as [e0| |r0 b0 o0],
               (step (direct fuel) c r b) as [e2| |r2 b2 o2];
        cbn [step_rel step_extra_rel] in H1, H2; try contradiction; try exact I.
      destruct H1 as (-> & Hst & Ho). destruct H2 as (-> & H2). cbn [app].
      destruct H2 as [(-> & -> & rest' & Hn' & -> & Hne' & Hall') | (-> & P & Q & HP & HS & HE & -> & ->)].
      * inversion Ho; subst. apply IH. exists x, rest'.
        split; [exact Hn'|]. split; [exact Hx|]. split; [exact Hne'|]. split; [exact Hall' | exact Hst].
      * rewrite (loop_acc fuel r2 a1 o1), (loop_acc fuel r2 b2 (map tl0 P ++ tl0 x :: Q)).
        pose proof (sim_loop 1 _ (inner_ok_k 1) fuel r2 a1 b2 Hst) as Hl.
        destruct (tok_loop fuel r2 a1 []) as [[[a3 o3]|?]|?], (tok_loop fuel r2 b2 []) as [[[b3 o4]|?]|?];
          cbn in Hl |- *; try contradiction; try exact I.
        destruct Hl as [Hs3 Ho3]. split; [apply (st_sh_same_indent 1 _ _ Hs3)|]. right.
        apply Forall2_app_inv_r in Ho as (u & v & Hu & Hv & ->).
        exists u, (v ++ o3), (map tl0 P), (tl0 x), (Q ++ o4).
        split; [rewrite app_assoc; reflexivity|]. split; [rewrite <- app_assoc; reflexivity|].
        split; [apply Hx|]. split; [reflexivity|].
        split; [destruct HE as (P0 & z & -> & Hz); exists (map tl0 P0), (tl0 z); split;
                [rewrite map_app; reflexivity | split; [exact Hz | reflexivity]]|].
        split; [exact (sh_synth_eqvs 1 u P Hu HS)|].
        apply Forall2_app; assumption.
Qed.

Lemma nl_lists_sh d la : forall lb,
  Forall nl_like la -> Forall nl_like lb -> length la = length lb -> Forall2 (lex_sh d) la lb.
Proof.
  induction la as [|a la IH]; intros [|b lb] Ha Hb Hl; try discriminate Hl; [constructor|].
  inversion Ha as [|? ? [A1 A2] Ha']; inversion Hb as [|? ? [B1 B2] Hb']; subst.
  constructor; [|apply IH; [assumption | assumption | cbn in Hl; lia]].
  split; [rewrite A1, B1; reflexivity|]. split; [rewrite A2, B2; reflexivity|]. rewrite A1. discriminate.
Qed.

Lemma extra_nl_start st n :
  nl_inv st ->
  extra_nl (state_newline st) (state_newline (Nat.iter n state_space (state_newline st))).
Proof.
  intros Hi. set (st2 := Nat.iter n state_space (state_newline st)).
  destruct (spaces_state n (state_newline st)) as (H1 & H2 & _ & H4 & _). fold st2 in H1, H2, H4.
  assert (HA : Forall nl_like (newlines (state_newline st))).
  { unfold state_newline. cbn. apply Forall_app. split; [exact Hi | constructor; [split; reflexivity | constructor]]. }
  assert (HB : Forall nl_like (newlines (state_newline st2))).
  { unfold state_newline at 1. cbn [newlines]. rewrite H1. apply Forall_app.
    split; [exact HA | constructor; [split; reflexivity | constructor]]. }
  assert (HL : length (newlines (state_newline st2)) = S (length (newlines (state_newline st)))).
  { unfold state_newline at 1. cbn [newlines]. rewrite H1, app_length. cbn. lia. }
  destruct (newlines (state_newline st2)) as [|x rest] eqn:Hn; [discriminate HL|].
  inversion HB as [|? ? Hx Hrest]; subst.
  exists x, rest. split; [exact Hn|]. split; [exact Hx|].
  assert (Hlen : length (newlines (state_newline st)) = length rest) by (cbn [length] in HL; lia).
  split.
  { intros ->. unfold state_newline in Hlen. cbn in Hlen. rewrite app_length in Hlen. cbn in Hlen. lia. }
  split; [revert Hrest; apply Forall_impl; intros l [Hl _]; exact Hl|].
  unfold st_sh, set_nl. cbn [newlines cur_indent line_indent token_this_line pos].
  split; [apply nl_lists_sh; assumption|].
  unfold state_newline. cbn [cur_indent line_indent token_this_line pos].
  split; [symmetry; exact H2|]. split; [reflexivity|]. split; [reflexivity|].
  unfold shift. cbn [line col]. rewrite H4. unfold state_newline. cbn. reflexivity.
Qed.

Theorem blank_line pre R n :
  accepted pre = true -> complete true pre = true -> hd_eol R = true ->
  opt_rel (fun l1 l2 => Forall2 tl_eqv l1 l2 \/ nl_inserted l1 l2)
          (run_tls (pre ++ R)) (run_tls (pre ++ c_nl :: spaces n ++ R)).
Proof.
  intros Hacc Hc HR. apply accepted_inv in Hacc as (st & acc & Hp).
  pose proof (hd_eol_stop R HR) as HRs.
  assert (Hinv : nl_inv st) by (eapply nl_inv_loop, Hp).
  assert (Hc1 : complete (hd_eol R) pre = true) by (rewrite HR; exact Hc).
  rewrite !run_tls_raw.
  rewrite (raw_split pre R st acc HRs Hc1 Hp), (raw_split pre (c_nl :: spaces n ++ R) st acc eq_refl Hc Hp).
  rewrite lex_from_nl, lex_from_spaces.
  set (st2 := Nat.iter n state_space (state_newline st)).
  destruct (spaces_state n (state_newline st)) as (_ & Hcur & _ & _ & _). fold st2 in Hcur.
  assert (Hres : extra_nl_res (lex_from st R) (lex_from st2 R)).
  { destruct (eol_loop R HR) as [-> | [[R' E] | E]]; rewrite ?E.
    - rewrite !lex_from_nil. split; [unfold same_indent; rewrite Hcur; reflexivity | left; split; reflexivity].
    - apply extra_nl_loop, extra_nl_start, Hinv.
    - exact I. }
  destruct (lex_from st R) as [[[a oa]|?]|?], (lex_from st2 R) as [[[b ob]|?]|?];
    cbn [extra_nl_res] in Hres; try tauto; try exact I.
  destruct Hres as [Hi [[-> ->] | Hins]].
  { (* no token in [R]: the two runs hand out the same tokens *)
    eapply opt_rel_impl; [intros l1 l2 H; left; exact H|].
    apply run_eqv, (raw_with_sim 0 eq inner_ok_eq); [apply tls_rel0_refl|].
    split; [exact Hi | apply tls_rel0_refl]. }
  cbn [raw_with opt_rel]. right.
  destruct Hins as (u & v & u' & x & v' & -> & -> & Hx & Hxi & (u0' & z' & -> & Hzk & Hzi) & Hu & Hv).
  apply Forall2_app_inv_r in Hu as (u0 & uz & Hu0 & Huz & ->).
  inversion Huz as [|z ? ? ? Hzz Hnil]; subst. inversion Hnil; subst. clear Huz Hnil.
  assert (Hz' : is_str (ltok (top z')) = false) by (destruct Hzk as [-> | ->]; reflexivity).
  assert (Hzn : is_str (ltok (top z)) = false) by (destruct Hzz as [(Hk & _) _]; rewrite Hk; exact Hz').
  assert (Hxn : is_str (ltok (top x)) = false) by (rewrite Hx; reflexivity).
  replace (acc ++ (u0 ++ [z]) ++ v) with ((acc ++ u0 ++ [z]) ++ v) by (rewrite <- !app_assoc; reflexivity).
  replace (acc ++ (u0' ++ [z']) ++ x :: v') with ((acc ++ u0' ++ [z'; x]) ++ v')
    by (rewrite <- !app_assoc; reflexivity).
  destruct (raw_of_tail a (acc ++ u0 ++ [z]) v) as [p ->], (raw_of_tail b (acc ++ u0' ++ [z'; x]) v') as [q ->].
  pose proof (tail_sim 1 _ (inner_ok_k 1) p q a v b v' Hi Hv) as HVV.
  set (VA := tail_of p (a, v)) in *. set (VB := tail_of q (b, v')) in *.
  replace ((acc ++ u0 ++ [z]) ++ VA) with ((acc ++ u0) ++ z :: VA) by (rewrite <- !app_assoc; reflexivity).
  replace ((acc ++ u0' ++ [z'; x]) ++ VB) with ((acc ++ u0') ++ z' :: [] ++ x :: VB)
    by (rewrite <- !app_assoc; reflexivity).
  rewrite !docstring_pass_nonstr by assumption.
  exists (docstring_pass (acc ++ u0) ++ [z]), (docstring_pass VA),
         (docstring_pass (acc ++ u0') ++ [z']), x, (docstring_pass VB).
  split; [rewrite <- app_assoc; reflexivity|]. split; [rewrite <- app_assoc; reflexivity|].
  split; [exact Hx|]. split; [exact Hxi|].
  split; [exists (docstring_pass (acc ++ u0')), z'; split; [reflexivity | split; [exact Hzk | exact Hzi]]|].
  split.
  - apply Forall2_app; [|constructor; [exact Hzz | constructor]].
    apply tls_eqv_rel, (docstring_pass_sim 0 eq inner_ok_eq), Forall2_app; [apply tls_rel0_refl|].
    apply tls_eqv_rel, Hu0.
  - apply (docstring_pass_sim 1 _ (inner_ok_k 1)), HVV.
Qed.

Lemma knf_nl_inserted l1 l2 :
  nl_inserted l1 l2 ->
  exists k1 z k2, (z = MNL \/ z = MIndent) /\ knf l1 = k1 ++ z :: k2 /\ knf l2 = k1 ++ z :: MNL :: k2.
Proof.
  intros (u & v & u' & x & v' & -> & -> & Hx & Hxi & (u0 & z & -> & Hz & Hzi) & Hu & Hv).
  exists (knf u0), (ltok (top z)), (knf v'). split; [exact Hz|]. change (x :: v') with ([x] ++ v').
  rewrite !knf_app, (knf_eqv _ _ Hu), !knf_app, (knf_sim 1 _ (inner_ok_k 1) _ _ Hv),
    (knf_top z Hzi), (knf_top x Hxi), Hx.
  replace (is_comment (ltok (top z))) with false by (destruct Hz as [-> | ->]; reflexivity).
  cbn [is_comment]. rewrite <- !app_assoc. split; reflexivity.
Qed.
